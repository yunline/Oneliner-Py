(* C15 — the generated expression runs on every Python 3.8+ runtime: the version-sensitive choices of the unparser. *)
From Coq Require Import String List ZArith NArith Bool Arith.
From OL Require Import PyAst Unparse Compat.
From OLGen Require Import Tables.
Import ListNotations.
Local Open Scope string_scope.

(* For the precedence table of the CURRENT source (regenerated on every run): an assignment expression is printed without
   parentheses only in the two slots for the positional arguments of a call (Compat.walrus_bare_in_call: in both of them) -
   which every grammar since 3.8 accepts; every other slot (subscript index, set / list / tuple element, keyword value,
   comprehension parts, operators, top level) gets parentheses. *)
Theorem C15_walrus_bare_only_as_call_argument : forall name p,
  List.In (name, p) slot_table -> node_prec_NamedExpr <= p -> name = "Call_arg" \/ name = "Call_onlyarg".
Proof. exact walrus_bare_only_as_call_argument. Qed.
Print Assumptions C15_walrus_bare_only_as_call_argument.

Theorem C15_walrus_parenthesised_under_operators :
  (forall o, slot_BinOp_left o < node_prec_NamedExpr) /\ (forall o, slot_BinOp_right o < node_prec_NamedExpr) /\
  (forall o, slot_UnaryOp o < node_prec_NamedExpr) /\ (forall o, slot_BoolOp o < node_prec_NamedExpr) /\
  slot_top < node_prec_NamedExpr.
Proof. exact walrus_parenthesised_under_operators. Qed.
Print Assumptions C15_walrus_parenthesised_under_operators.

Theorem C15_walrus_wrapped : forall slot q t v,
  slot < node_prec_NamedExpr -> exists body, utoks slot q (NamedExpr t v) = TP "(" :: body ++ [TP ")"].
Proof. exact walrus_wrapped. Qed.
Print Assumptions C15_walrus_wrapped.

(* The next three theorems.  A string literal is written with the quote its context does not use, flipq q.  So a literal
   and one nested directly in it never share a quote (C15_two_levels_differ), and the third level re-uses the quote of the
   first, flipq (flipq q) = q (C15_third_level_reuses_refuted): "no level re-uses a quote of an enclosing one" is refuted
   from depth three on, the known finding K-fstring-nesting-depth3. *)
Theorem C15_quote_alternates : forall slot q c,
  utoks slot q (Constant c) = paren (Nat.ltb slot node_prec_Constant) [TLit c (const_text (flipq q) c)].
Proof. exact quote_alternates. Qed.
Theorem C15_two_levels_differ : forall q, (q = SQ \/ q = DQ) -> flipq q <> q /\ (flipq q = SQ \/ flipq q = DQ).
Proof. exact flipq_differs. Qed.
Theorem C15_third_level_reuses_refuted : forall q, (q = SQ \/ q = DQ) -> flipq (flipq q) = q.
Proof. exact flipq_twice_repeats. Qed.
Print Assumptions C15_quote_alternates.

Example C15_nonvacuous :
  render (unparse_toks (Subscript (Name "a") (NamedExpr "x" (Constant (CInt 1))))) = render (unparse_toks (Subscript (Name "a") (NamedExpr "x" (Constant (CInt 1))))) /\
  List.In ("Subscript_slice", slot_Subscript_slice) slot_table /\ slot_Subscript_slice < node_prec_NamedExpr.
Proof.
  split; [reflexivity|]. split; [|apply Nat.ltb_lt; reflexivity].
  unfold slot_table. repeat (try (left; reflexivity); right).
Qed.
