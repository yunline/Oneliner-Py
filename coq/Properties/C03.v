(* C03 — the custom unparser round-trips every expression tree. *)
From Coq Require Import String List ZArith Bool Arith.
From OL Require Import PyAst Unparse Namespace Lower Parse ParseProof ParseTie LowerCore StmtOk StmtCore.
From OLGen Require Import Tables.
Import ListNotations.
Local Open Scope string_scope.

(* Parse.pc is a precedence-climbing parser of Python's expression grammar restricted to the operator core: all 13 binary,
   4 unary and 2 boolean operators, comparison chains (all 10 operators, `is not` / `not in` as two tokens), conditional
   expressions, lambdas with EVERY parameter list (positional-only `/`, positional, `*args` or a bare `*`,
   keyword-only, `**kwargs`, defaults of any core expression), assignment expressions, attribute / call / subscript trailers (plain, tuple and
   slice indices with any missing parts, index tuples with slices among their items: a[1:2, k, ::3]), calls with positional,
   starred, keyword and double-starred arguments in any number, list / tuple / set / dict displays with starred and
   double-starred elements, list / set / dict comprehensions with any number of `for` clauses and conditions,
   generator expressions in the two positions where they are commonly written (the bare only argument of a call,
   `sum(x for x in y)`, and a whole parenthesised expression),
   parenthesised groups, names and (opaque) literals.  Parse.pp is the unparser on that core, over the precedence ladder and the slot table
   REGENERATED from expr_unparse.py on every run; C03_printer_is_unparser PROVES that it is the unparser model Unparse.utoks
   (the model tied to expr_unparse.py by string equality) with every fragment split into words.

   C03_roundtrip_unparser_core_partial is the statement on the unparser model itself.

   C03_roundtrip_core_partial: for EVERY tree of the core, of any depth and shape, the parser reads back exactly the tree
   from the printed tokens, consuming all of them.  PARTIAL with respect to the property: generator
   expressions as operands of other nodes, f-strings and yield / await are outside the core (decided by
   CPython's parser on all compositions, see the evidence); literals are opaque tokens (C04). *)
Theorem C03_roundtrip_core_partial : forall e, core_top e = true ->
  exists f0, forall f, f0 <= f -> pc f (MExpr slot_top) (pp slot_top e) = Some (e, []).
Proof. exact roundtrip_core_top. Qed.
Print Assumptions C03_roundtrip_core_partial.

(* the printer of the theorem is the unparser model: for every tree of the core the fragments Unparse.utoks emits, split
   into words (Parse.norm: keywords / punctuation / names / opaque literals), are exactly the tokens of Parse.pp *)
Theorem C03_printer_is_unparser : forall e, core_top e = true -> norm (unparse_toks e) = pp slot_top e.
Proof. exact norm_unparse_core_top. Qed.
Print Assumptions C03_printer_is_unparser.

Theorem C03_roundtrip_unparser_core_partial : forall e, core_top e = true ->
  exists f0, forall f, f0 <= f -> pc f (MExpr slot_top) (norm (unparse_toks e)) = Some (e, []).
Proof. exact roundtrip_unparser_core_top. Qed.
Print Assumptions C03_roundtrip_unparser_core_partial.

(* "... or emitted by the converter": the scope-rewriting layer (Lower.transf, the model of expr_transform.py: loads through the
   nonlocal / class dictionaries, globals(), conditional loads, assignment expressions turned into dictionary stores, the explicit
   super(__class__, self)) maps the core into itself - for EVERY namespace, every set of bound names and every expression of
   the core, what the converter emits for it is again an expression the round-trip theorem covers. *)
Theorem C03_scope_rewriting_keeps_core : forall (n : nsp) e bd inn e', core_top e = true -> transf n bd inn e = inl e' ->
  core_top e' = true.
Proof. exact transf_keeps_core_top. Qed.
Print Assumptions C03_scope_rewriting_keeps_core.

(* ... and the STATEMENT layer (Lower.lower_stmt / lower_block / lower_module, the model of pending_nodes.py): every expression
   emitted for a statement of the fragment - loops as comprehensions over takewhile / iterator wrappers, flags and guards,
   destructuring through temporaries and slices, augmented assignments, imports, functions as lambdas over a list display,
   classes through a loader and setattr - is in the core, hence so is the ONE expression a whole program becomes. *)
Theorem C03_statement_layer_keeps_core : forall cfg root body e,
  forallb stmt_ok body = true -> lower_module cfg root body = inl e -> core_top e = true.
Proof. exact lower_module_core_top. Qed.
Print Assumptions C03_statement_layer_keeps_core.

(* the table facts the proof rests on, each a finite check over the regenerated table (a changed precedence or slot
   breaks one of them): an operand printed bare in a slot is followed by a token that does not continue it *)
Theorem C03_context_binop : forall o r, rest_okb (slot_BinOp_left o) (PK (binop_text o) :: r) = true.
Proof. exact ctx_binop. Qed.
Theorem C03_context_boolop : forall o r, rest_okb (slot_BoolOp o) (PK (bool_key o) :: r) = true.
Proof. exact ctx_boolop. Qed.
Theorem C03_context_compare : forall o r, rest_okb slot_Compare_left (map PK (cmp_keys o) ++ r) = true.
Proof. exact ctx_cmp. Qed.
Theorem C03_context_if : forall r, rest_okb slot_IfExp_body (PK "if" :: r) = true.
Proof. exact ctx_if. Qed.
Print Assumptions C03_context_binop.

(* `a is (not b)`: an operand printed below `not` never begins with the keyword `not` *)
Theorem C03_is_not_ambiguity : forall e, core e = true -> forall s rest, below_not s -> hd_is "not" (pp s e ++ rest) = false.
Proof. exact pp_head_not_not. Qed.
Print Assumptions C03_is_not_ambiguity.

(* parentheses exactly when the node binds looser than the slot (the whole unparser model, every node kind) *)
Theorem C03_paren_iff : forall slot q e, exists body,
  utoks slot q e = paren (Nat.ltb slot (node_prec e)) body.
Proof. intros slot q e. destruct e; cbn [utoks]; eexists; reflexivity. Qed.

(* non-vacuity: -a ** -b ** c, a chain, `is (not ...)`, nested conditionals *)
Example C03_nonvacuous :
  let e := IfExp (Compare (Name "a") [Is; NotIn] [UnaryOp Not (Name "b"); Name "c"])
                 (UnaryOp USub (BinOp (Name "a") Pow (UnaryOp USub (BinOp (Name "b") Pow (Name "c")))))
                 (lambda0 (BoolOp And [Name "x"; BoolOp Or [Name "y"; Name "z"]; NamedExpr "w" (Name "v")])) in
  core_top e = true /\ parse_core (pp slot_top e) = Some e.
Proof. split; vm_compute; reflexivity. Qed.
