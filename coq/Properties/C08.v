(* C08 — unsupported constructs are rejected, never silently dropped or mistranslated. *)
From Coq Require Import String List Bool ZArith.
From OL Require Import PyAst Namespace Lower Reject KSem KSim Depth DeadCode.
From OLGen Require Import Tables.
Import ListNotations.

(* the code's dispatch table (regenerated each run) has exactly the keys listed in Reject.supported_kinds; [stmt] has one
   constructor for each of them except Module (PyAst.stmt_of) *)
Theorem C08_dispatch_table : map fst dispatch_table = supported_kinds.
Proof. exact dispatch_table_kinds. Qed.
Print Assumptions C08_dispatch_table.

(* any statement kind outside that table, at ANY nesting depth and position the traversal reaches
   (module, function, class, loop body, else branch, def/class nested in a loop ...), makes conversion fail *)
Theorem C08_unsupported_stmt_rejected : forall cfg s c p,
  reaches_unsupported s = true -> failed (lower_stmt cfg c p s).
Proof. exact unsupported_stmt_rejected. Qed.
Print Assumptions C08_unsupported_stmt_rejected.

Theorem C08_unsupported_module_rejected : forall cfg root body,
  existsb reaches_unsupported body = true -> failed (lower_module cfg root body).
Proof. exact unsupported_module_rejected. Qed.
Print Assumptions C08_unsupported_module_rejected.

Theorem C08_yield_rejected : forall n comp inn v, transf n comp inn (Yield v) = inr ERuntime.
Proof. exact yield_rejected. Qed.
Theorem C08_yield_from_rejected : forall n comp inn v, transf n comp inn (YieldFrom v) = inr ERuntime.
Proof. exact yield_from_rejected. Qed.
Theorem C08_await_rejected : forall n comp inn v, transf n comp inn (Await v) = inr ERuntime.
Proof. exact await_rejected. Qed.

Theorem C08_break_outside_loop : forall cfg n r p, lower_stmt cfg (mkCtx n [] r) p SBreak = inr ESyntax.
Proof. exact break_outside_loop. Qed.
Theorem C08_continue_outside_loop : forall cfg n r p, lower_stmt cfg (mkCtx n [] r) p SContinue = inr ESyntax.
Proof. exact continue_outside_loop. Qed.
Theorem C08_return_outside_function : forall cfg c p v,
  n_kind (c_nsp c) <> NFunction -> lower_stmt cfg c p (SReturn v) = inr ESyntax.
Proof. exact return_outside_function. Qed.
Print Assumptions C08_return_outside_function.

(* the FULL statement - a program containing an unsupported statement ANYWHERE is refused - is refuted: the statements after a
   direct break / continue / return of a block are not dispatched (known finding K-dead-code-unchecked; the theorems above are
   about the statements the traversal reaches, `reaches_unsupported`) *)
Theorem C08_dead_code_unchecked_refuted :
  (exists e, lower_module cfg_list top_symtab dead_code_prog = inl e) /\ existsb reaches_unsupported dead_code_prog = false.
Proof. exact dead_code_unchecked. Qed.
Print Assumptions C08_dead_code_unchecked_refuted.

Example C08_nonvacuous :
  reaches_unsupported
    (SFunctionDef "f" 1%Z (mkArgs [] [] None [] [] None [])
       [SWhile (Name "c") [SIf (Name "d") [SPass; SUnsupported "Try"] []] []] []) = true.
Proof. exact reject_example. Qed.

(* a starred element in the target pattern of a comprehension clause - so, in particular, two starred names in one such pattern -
   is refused, for every kind of comprehension, any clause, any nesting of the pattern *)
Theorem C08_starred_comprehension_target_rejected : forall n bd inn x k v gs, existsb clause_star gs = true ->
  failed (transf n bd inn (ListComp x gs)) /\ failed (transf n bd inn (SetComp x gs)) /\
  failed (transf n bd inn (GeneratorExp x gs)) /\ failed (transf n bd inn (DictComp k v gs)).
Proof. exact starred_comprehension_target_rejected. Qed.
Print Assumptions C08_starred_comprehension_target_rejected.
