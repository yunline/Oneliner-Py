(* C13 — assignment, destructuring and augmented assignment store what Python stores. *)
From Coq Require Import String List ZArith.
From OL Require Import PyAst Namespace Lower Unpack UnpackProof UnpackNested AugOps.
From OLGen Require Import Tables.
Import ListNotations.

(* For EVERY flat target list with at most one starred name, every sequence of a length Python accepts and
   every value type: the accessors the converter emits (t[i], list(t[s:s-n+1 or None]), t[i-n] over
   t = tuple(value)) select exactly what Python's unpacking binds. *)
Theorem C13_unpack_tuple : forall (V : Type) (g : nsp) (p : path) (ts : list tgt) (value : expr) (v : list V) bs,
  n_kind g = NGlobal ->
  unpack V ts v = Some bs ->
  exists stores,
    assign_auto g p (ETuple (map tgt_expr ts)) value
      = inl (NamedExpr (ol "assign" (path_str p)) (call (Name "tuple") [value]) :: stores)
    /\ eval_stores V (ol "assign" (path_str p)) v stores = Some bs.
Proof. exact (unpack_flat_form_correct true). Qed.
Print Assumptions C13_unpack_tuple.

Theorem C13_unpack_list : forall (V : Type) (g : nsp) (p : path) (ts : list tgt) (value : expr) (v : list V) bs,
  n_kind g = NGlobal ->
  unpack V ts v = Some bs ->
  exists stores,
    assign_auto g p (EList (map tgt_expr ts)) value
      = inl (NamedExpr (ol "assign" (path_str p)) (call (Name "tuple") [value]) :: stores)
    /\ eval_stores V (ol "assign" (path_str p)) v stores = Some bs.
Proof. exact (unpack_flat_form_correct false). Qed.
Print Assumptions C13_unpack_list.

(* NESTED patterns, any depth: tuple / list patterns inside each other, at most one starred target per level, a starred
   target that is itself a pattern.  bind is Python's unpacking on nested sequences (reference semantics); run executes the
   emitted stores IN ORDER - temporaries `__ol_assign_<position> := tuple(<accessor>)`, user names receiving accessors
   `tmp[i]`, `tmp[i - n]`, `list(tmp[i:j])` - from the environment in which the first temporary holds the value's items.
   The stores bind exactly what Python binds, in Python's order; in particular the temporaries of different levels never
   overwrite each other (their names are position-derived: Fresh.helpers_distinct_positions). *)
Theorem C13_unpack_nested : forall (A : Type) (g : nsp) (p : path) (ts : list expr) (tuple_form : bool) (value : expr)
    (l : list (val A)) bs,
  n_kind g = NGlobal ->
  let t := if tuple_form then ETuple ts else EList ts in
  bind A t (VSeq A l) = Some bs ->
  exists stores E',
    assign_auto g p t value = inl (NamedExpr (ol "assign" (path_str p)) (call (Name "tuple") [value]) :: stores)
    /\ run A [(ol "assign" (path_str p), l)] stores = Some (E', bs).
Proof. exact unpack_nested_correct. Qed.
Print Assumptions C13_unpack_nested.

Example C13_nested_nonvacuous :
  let t := ETuple [ETuple [Name "a"; ETuple [Name "b"; Starred (Name "c")]]; Starred (Name "d"); EList [Name "e"]] in
  let v := VSeq nat [VSeq nat [VAtom nat 1; VSeq nat [VAtom nat 2; VAtom nat 3; VAtom nat 4]]; VAtom nat 5; VAtom nat 6; VSeq nat [VAtom nat 7]] in
  bind nat t v = Some [("a"%string, VAtom nat 1); ("b"%string, VAtom nat 2); ("c"%string, VSeq nat [VAtom nat 3; VAtom nat 4]);
                       ("d"%string, VSeq nat [VAtom nat 5; VAtom nat 6]); ("e"%string, VAtom nat 7)].
Proof. exact unpack_nested_example. Qed.

(* a second starred name in a tuple pattern is refused with a syntax error; stated for patterns in which everything before
   the second star is a plain name *)
Theorem C13_two_stars_rejected : forall (g : nsp) p pre mid post x y value,
  n_kind g = NGlobal ->
  Forall (fun t => exists z, t = Name z) pre -> Forall (fun t => exists z, t = Name z) mid ->
  assign_auto g p (ETuple (pre ++ Starred (Name x) :: mid ++ Starred (Name y) :: post)) value = inr ESyntax.
Proof. exact two_stars_rejected. Qed.
Print Assumptions C13_two_stars_rejected.

(* the operator table read from the code is the data model's table *)
Theorem C13_op_table : forall o, aug_op_name o = ref_inplace_name o.
Proof. exact op_table_correct. Qed.
Print Assumptions C13_op_table.

(* x op= v at module level: one conditional whose two branches both rebind x *)
Theorem C13_aug_name_rebinds : forall (g : nsp) p x op value v',
  n_kind g = NGlobal -> tr g value = inl v' ->
  lower_augassign g p (Name x) op value =
  inl [IfExp (call (Name "hasattr") [Name x; cstr (aug_op_name op)])
             (NamedExpr x (call (Attribute (Name x) (aug_op_name op)) [v']))
             (NamedExpr x (BinOp (Name x) op v'))].
Proof. exact aug_name_global. Qed.
Print Assumptions C13_aug_name_rebinds.

(* augmented assignment with an in-place method that may DECLINE (return NotImplemented): the emitted conditional stores
   Python's value whenever the method, if there is one, does not decline (PARTIAL) ... *)
Theorem C13_aug_binds_when_not_declined_partial : forall (Val : Type) (ni : Val) has_inplace inplace binary x o v,
  (has_inplace x o = true -> inplace x o v <> None) ->
  emitted_binding_ni Val ni has_inplace inplace binary x o v = py_augassign_ni Val has_inplace inplace binary x o v.
Proof. exact emitted_binds_when_not_declined. Qed.
Print Assumptions C13_aug_binds_when_not_declined_partial.

(* ... and the unrestricted statement is refuted: a declining method makes the emitted code store NotImplemented where Python
   falls back to the binary operator (known finding K-inplace-notimplemented, witness replayed on the real code on every run) *)
Theorem C13_aug_binds_refuted :
  exists (x v : nat) (o : binop),
    emitted_binding_ni nat 0 (fun _ _ => true) (fun _ _ _ => None) (fun _ _ _ => 7) x o v
    <> py_augassign_ni nat (fun _ _ => true) (fun _ _ _ => None) (fun _ _ _ => 7) x o v.
Proof. exact emitted_binding_ni_refuted. Qed.
Print Assumptions C13_aug_binds_refuted.

Example C13_nonvacuous :
  unpack nat [TPlain "a"; TStar "b"; TPlain "c"; TPlain "d"] [1; 2; 3; 4; 5]
  = Some [("a"%string, BVal nat 1); ("b"%string, BList nat [2; 3]); ("c"%string, BVal nat 4); ("d"%string, BVal nat 5)].
Proof. exact unpack_example. Qed.
