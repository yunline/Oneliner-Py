(* C07 — evaluation order and evaluate-once are preserved. *)
From Coq Require Import String List ZArith Bool.
From OL Require Import PyAst Namespace Lower FuncDef EvalOrder.
Import ListNotations.

(* `events e` is the sequence of probe calls p(k) that evaluating e performs, in Python's left-to-right order, or None when
   an operand order cannot be read off syntactically (a conditional whose branches differ).  `stable g e` says the
   rewriting leaves e unchanged at module level (probes, global names, attribute chains on them ...); the theorems
   quantify over ALL such operand expressions, any number of targets, any operator. *)

(* ASSIGNMENT with any number of targets, each a name / attribute / subscript: the emitted expressions evaluate the value
   exactly once and first, then each target's object and index, targets left to right. *)
Theorem C07_assign_order : forall g, n_kind g = NGlobal -> forall cfg loops ru p ts v,
  ts <> [] -> Forall (simple_target g) ts -> stable g v ->
  exists es, lower_stmt cfg (mkCtx g loops ru) p (SAssign ts v) = inl es /\ events_seq es = src_assign ts v.
Proof. exact assign_order. Qed.
Print Assumptions C07_assign_order.

(* AUGMENTED ASSIGNMENT: target object (and index) once, then the value. *)
Theorem C07_augassign_name_order : forall g, n_kind g = NGlobal -> forall cfg loops ru p x op v evs,
  stable g v -> events v = Some evs ->
  exists es, lower_stmt cfg (mkCtx g loops ru) p (SAugAssign (Name x) op v) = inl es /\ events_seq es = Some evs.
Proof. exact augassign_name_order. Qed.
Print Assumptions C07_augassign_name_order.

Theorem C07_augassign_attr_order : forall g cfg loops ru p o a op v eo evs,
  stable g o -> stable g v -> events o = Some eo -> events v = Some evs ->
  exists es, lower_stmt cfg (mkCtx g loops ru) p (SAugAssign (Attribute o a) op v) = inl es /\
             events_seq es = Some (eo ++ evs).
Proof. exact augassign_attr_order. Qed.
Print Assumptions C07_augassign_attr_order.

Theorem C07_augassign_sub_order : forall g cfg loops ru p o i op v eo ei evs,
  stable g o -> stable g i -> (match i with Slice _ _ _ | ETuple _ => False | _ => True end) -> stable g v ->
  events o = Some eo -> events i = Some ei -> events v = Some evs ->
  exists es, lower_stmt cfg (mkCtx g loops ru) p (SAugAssign (Subscript o i) op v) = inl es /\
             events_seq es = Some (eo ++ ei ++ evs).
Proof. exact augassign_sub_order. Qed.
Print Assumptions C07_augassign_sub_order.

(* DEF with any decorators and defaults: decorator expressions top-down, then positional defaults, then keyword-only
   defaults, each once, at definition time (application of the decorators is bottom-up: C11_signature_copied). *)
Theorem C07_def_order : forall cfg g loops ru p name ln args body decs es,
  n_kind g = NGlobal -> Forall (stable g) decs -> Forall (stable g) (a_defaults args) ->
  Forall (fun d => match d with Some x => stable g x | None => True end) (a_kw_defaults args) ->
  lower_stmt cfg (mkCtx g loops ru) p (SFunctionDef name ln args body decs) = inl es ->
  events_seq es = src_def decs args.
Proof. exact def_order. Qed.
Print Assumptions C07_def_order.

(* non-vacuity: probes are stable at module level and are recorded; `o(1).a = d(2)[p(3)] = p(0)` *)
Definition g0 : nsp := Nsp 0 NGlobal "top" 0 [] [] [] [] [] false false [] [] [].
Definition probe (k : Z) : expr := Call (Name "p") [Constant (CInt k)] [].
Example C07_nonvacuous :
  stable g0 (probe 0) /\ Forall (simple_target g0) [Attribute (probe 1) "a"; Subscript (probe 2) (probe 3)] /\
  src_assign [Attribute (probe 1) "a"; Subscript (probe 2) (probe 3)] (probe 0) = Some [0; 1; 2; 3]%Z.
Proof.
  split; [reflexivity|]. split; [|reflexivity].
  repeat constructor; reflexivity.
Qed.

(* the header of a class statement at module level: the bases are evaluated first, then the keywords in the order written -
   a `metaclass=` keyword at its place among them (it used to be evaluated before the bases: fix e4f4404) - once each.
   (Class DECORATOR expressions are evaluated after the body: known finding K-class-decorator-late.) *)
Theorem C07_class_header_order : forall cfg g loops ru p name ln bases kws body decs es,
  n_kind g = NGlobal -> Forall (stable g) bases -> Forall (fun kw => stable g (snd kw)) kws ->
  lower_stmt cfg (mkCtx g loops ru) p (SClassDef name ln bases kws body decs) = inl es ->
  exists create rest, es = create :: rest /\
    events create = oapp (events_seq bases) (events_seq (map snd kws)).
Proof. exact class_header_order. Qed.
Print Assumptions C07_class_header_order.
