(* C09 — helper names never capture or clobber user identifiers (the part carried by theorems). *)
From Coq Require Import String List Bool.
From OL Require Import PyAst Namespace Lower Names Fresh.
Import ListNotations.

(* every helper name the converter model creates carries the reserved prefix ... *)
Theorem C09_helper_reserved : forall k s, reserved (ol k s) = true.
Proof. exact helper_reserved. Qed.
Print Assumptions C09_helper_reserved.

(* ... so an identifier without that prefix - `_`, `__`, `k`, `v`, `self`, `it`, `itertools`, `importlib`, builtins,
   anything - is never equal to a helper name *)
Theorem C09_user_name_not_helper : forall x k s, reserved x = false -> x <> ol k s.
Proof. exact user_name_not_helper. Qed.
Print Assumptions C09_user_name_not_helper.

(* distinct temporaries never share a name: different purposes, different statement positions, different namespaces.
   The purposes are those of [helper_kinds]; Lower.v has four more ("augobj", "hook", "bases", "kwds") that it leaves out. *)
Theorem C09_distinct_kinds : forall k1 k2 s1 s2, List.In k1 helper_kinds -> List.In k2 helper_kinds -> k1 <> k2 ->
  ol k1 s1 <> ol k2 s2.
Proof. exact helpers_distinct_kinds. Qed.
Theorem C09_distinct_positions : forall k p q, p <> q -> ol k (path_str p) <> ol k (path_str q).
Proof. exact helpers_distinct_positions. Qed.
Theorem C09_distinct_namespaces : forall k i j, i <> j -> ol k (ncode i) <> ol k (ncode j).
Proof. exact helpers_distinct_namespaces. Qed.
Print Assumptions C09_distinct_positions.

Example C09_nonvacuous :
  ol "break" (path_str [1; 0; 2]) <> ol "interrupt" (path_str [1; 0; 2]) /\
  ol "break" (path_str [1; 0; 2]) <> ol "break" (path_str [0; 0; 2]) /\ reserved "itertools" = false.
Proof. exact fresh_example. Qed.
