(* C11 — functions keep their signature, call binding, defaults and decorators. *)
From Coq Require Import String List ZArith Bool.
From OL Require Import PyAst Namespace Lower FuncDef KSem KSim.
Import ListNotations.

(* For EVERY function definition (any mix and number of positional-only, positional-or-keyword, *args, keyword-only and
   **kwargs parameters, any defaults, any decorators): the emitted lambda has exactly the source's five parameter lists;
   its defaults / keyword defaults are the source's default expressions, rewritten in the DEFINING namespace, in the same
   order (so they are evaluated once, at definition time, there); decorators are applied bottom-up; the result is bound
   to the function's name in the defining namespace.  CPython binds calls for `def` and `lambda` from the same
   `arguments` record, so equal records accept and reject the same calls (trusted). *)
Theorem C11_signature_copied : forall cfg c p name ln args body decs es,
  lower_stmt cfg c p (SFunctionDef name ln args body decs) = inl es ->
  exists fn defaults' kwdefaults' decs' lbody e,
    find_inner (c_nsp c) name ln = Some fn /\
    rmap (tr (c_nsp c)) (a_defaults args) = inl defaults' /\
    rmap (fun d => match d with Some x => rbind (tr (c_nsp c) x) (fun y => ret (Some y)) | None => ret None end) (a_kw_defaults args) = inl kwdefaults' /\
    rmap (tr (c_nsp c)) (rev decs) = inl decs' /\
    let lam := Lambda (a_posonly args) (a_args args) (a_vararg args) (a_kwonly args) kwdefaults' (a_kwarg args) defaults' lbody in
    let decorated := decorate decs' lam in
    let final := hook_wrap p (n_is_method fn) name decs decorated in
    get_assign (c_nsp c) name final = inl e /\ es = [e].
Proof. exact funcdef_shape. Qed.
Print Assumptions C11_signature_copied.

(* a call returns the value of the executed return, or None: r(f()) records what f returned as the last event, EResult,
   of the trace, and the traces are equal (the C05 function-placement simulation) *)
Theorem C11_return_value : forall orc fuel b sx e,
  wf_block false true b = true ->
  exec_function orc fuel b = Some sx ->
  lower_module cfg0 fun_symtab (fun_program b) = inl e ->
  exists f v s', run orc f (MExpr e) (mkSt [] [] 0) = Some (v, s') /\ s_tr s' = x_tr sx /\ s_pos s' = x_pos sx.
Proof. exact function_simulation. Qed.
Print Assumptions C11_return_value.

Example C11_nonvacuous :
  decorate [Name "d1"; Name "d2"] (Name "f") = call (Name "d2") [call (Name "d1") [Name "f"]].
Proof. reflexivity. Qed.
