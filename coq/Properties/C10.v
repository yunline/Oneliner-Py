(* C10 — conversion is a pure function of (source, options): the option-object state machine. *)
From Coq Require Import String List.
From OL Require Import Config ConfigProof.
Import ListNotations.

(* for ALL histories of {new, set, convert with/without options, reseed}: each conversion runs with the
   last valid values set on its own object (defaults otherwise) *)
Theorem C10_history : forall h, run [] h = spec_run [] h.
Proof. exact history_correct. Qed.
Print Assumptions C10_history.

Theorem C10_none_uses_defaults : forall h1 h2,
  nth_error (run [] (h1 ++ AConvert None :: h2)) (length h1)
  = Some (OEff (map (fun n => (n, default_of n)) opt_names)).
Proof. exact convert_none_uses_defaults. Qed.
Print Assumptions C10_none_uses_defaults.

(* run_shared models the options as class-level descriptor cells, one value per option shared by all objects (what the code
   did before the "fix:" commit): that design does NOT satisfy the specification *)
Theorem C10_shared_refuted : run_shared (0, []) witness_history <> spec_run [] witness_history.
Proof. exact shared_model_refuted. Qed.
Print Assumptions C10_shared_refuted.

Example C10_nonvacuous :
  run [] witness_history = spec_run [] witness_history /\
  nth_error (run [] witness_history) 2 = Some (OSet true).
Proof. exact witness_per_instance_ok. Qed.
