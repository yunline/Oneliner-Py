(* C17 — long and deeply nested programs convert without exhausting recursion (the part carried by theorems). *)
From Coq Require Import String List ZArith Bool Arith.
From OL Require Import PyAst Namespace Lower KSem KSim Depth DepthElif GuardNest.
Import ListNotations.

(* expr_wrapper = list: a list display is one level deeper than its deepest element, however many elements it has *)
Theorem C17_wrap_list_depth : forall es d, Forall (fun e => depth e <= d) es -> depth (wrap cfg_list es) <= S d.
Proof. exact wrap_list_depth. Qed.
Print Assumptions C17_wrap_list_depth.

(* so a module of n consecutive simple statements is an expression of depth <= 3, for EVERY n *)
Theorem C17_statements_depth_list : forall n, exists e, lower_module cfg_list top_symtab (marks n) = inl e /\ depth e <= 3.
Proof. exact statements_depth_list. Qed.
Print Assumptions C17_statements_depth_list.

(* expr_wrapper = chain_call (the default): refuted - the nesting depth is at least the number of statements, so the
   size CPython accepts for the source is not accepted for the translation (known finding) *)
Theorem C17_statements_depth_chain_refuted : forall n, 2 <= n ->
  exists e, lower_module cfg_chain_call top_symtab (marks n) = inl e /\ n <= depth e.
Proof. exact statements_depth_chain. Qed.
Print Assumptions C17_statements_depth_chain_refuted.

(* the same family measured by the FULL height of the tree (every child of every node counts, comprehension bodies and
   generators included) *)
Theorem C17_statements_height_list : forall n, exists e, lower_module cfg_list top_symtab (marks n) = inl e /\ height e <= 3.
Proof. exact statements_height_list. Qed.
Print Assumptions C17_statements_height_list.

(* an early exit (`if c(1): break` in a while loop) followed by n statements of the same block: the rest of the block sits
   under ONE test of the exit's flag - height at most 7 for EVERY n, not one nesting level per statement *)
Theorem C17_guarded_statements_height_list : forall n,
  exists e, lower_module cfg_list top_symtab (guard_prog n) = inl e /\ height e <= 7.
Proof. exact guarded_statements_height_list. Qed.
Print Assumptions C17_guarded_statements_height_list.

(* the same after `if c(1): continue` in a for loop *)
Theorem C17_continued_statements_height_list : forall n,
  exists e, lower_module cfg_list top_symtab (cont_prog n) = inl e /\ height e <= 6.
Proof. exact continued_statements_height_list. Qed.
Print Assumptions C17_continued_statements_height_list.


(* the same after `if c(1): return` in a function body (def f(): <guard>; n statements): height at most 8 for EVERY n *)
Theorem C17_returned_statements_height_list : forall n,
  exists e, lower_module cfg_list fun_symtab (ret_prog n) = inl e /\ height e <= 8.
Proof. exact returned_statements_height_list. Qed.
Print Assumptions C17_returned_statements_height_list.

(* a chain  if / elif / ... / else  of n tests (Python's own tree nests one If per branch: the source is n + 1 levels deep).
   if_style = short_circuit: the whole chain is ONE flat `or` of n `and` pairs - height at most 6 for EVERY n *)
Theorem C17_elif_chain_height_short : forall n,
  exists e, lower_module cfg_short_list top_symtab (elif_chain n) = inl e /\ height e <= 6.
Proof. exact elif_chain_height_short. Qed.
Print Assumptions C17_elif_chain_height_short.

(* if_style = if_expr: one conditional expression per branch - exactly the nesting of the source plus one, no amplification *)
Theorem C17_elif_chain_height_ifexp : forall n,
  exists e, lower_module cfg_list top_symtab (elif_chain n) = inl e /\ height e = stmt_nest n + 1.
Proof. exact elif_chain_height_ifexp. Qed.
Print Assumptions C17_elif_chain_height_ifexp.

(* the mechanism of the known finding K-guard-clause-nesting, for EVERY statement lowering L, context and block: a statement
   that can take an early exit puts the lowering of the whole REST of the block at least one level below itself (list wrapper),
   so k guard clauses in one block nest the output k levels deep *)
Theorem C17_each_guard_adds_a_level : forall L c p br i s rest es rs bumps flag,
  rest <> [] -> rs <> [] -> L c (i :: br :: p) s = inl es -> is_interrupt s = false ->
  lower_block cfg_list L c p br (S i) rest = inl rs ->
  guard_of c = (bumps, Some flag) -> bumps s = true ->
  exists out, lower_block cfg_list L c p br i (s :: rest) = inl out /\ S (heights rs) <= heights out.
Proof. exact each_guard_adds_a_level. Qed.
Print Assumptions C17_each_guard_adds_a_level.

(* the family of the finding on the converter model: k guards `if c(1): break` and one statement in a while body: height 2k + 5 *)
Example C17_guards_height_grows :
  map guards_height [1; 2; 3; 4; 10; 30] = [Some 7; Some 9; Some 11; Some 13; Some 25; Some 65].
Proof. exact guards_height_grows. Qed.

Example C17_elif_nonvacuous : exists e, lower_module cfg_short_list top_symtab (elif_chain 30) = inl e /\ height e = 6.
Proof. eexists. split; [vm_compute; reflexivity|vm_compute; reflexivity]. Qed.

Example C17_guard_nonvacuous : exists e, lower_module cfg_list top_symtab (guard_prog 40) = inl e /\ height e = 7.
Proof. eexists. split; [vm_compute; reflexivity|vm_compute; reflexivity]. Qed.

Example C17_nonvacuous : exists e, lower_module cfg_list top_symtab (marks 5) = inl e /\ depth e = 3.
Proof. eexists. split; [vm_compute; reflexivity|reflexivity]. Qed.
