(* Model of the converter: oneliner/convert.py, pending_nodes.py, expr_transform.py, utils.py.
   A pure structural function.  The real code threads mutable counters (interrupt_cnt, break_cnt,
   return_cnt, flow_ctrl_*_used) and back-patches flag stores; here the same decisions are taken by
   the structural predicates [mi_loop], [has_ret], [uses_flag] (guards: DESIGN.md, Appendix A) and the flag
   stores are emitted directly.  Fresh names are derived from the position of the statement
   ([path]) instead of a random suffix; both sides are renamed by first occurrence before being
   compared.  Equality with the real converter's output AST is checked on every run. *)
From Coq Require Import String Ascii List ZArith NArith Bool Arith.
From OL Require Import Sexp PyAst Namespace.
From OLGen Require Import Tables.
Import ListNotations.
Open Scope string_scope.
Open Scope list_scope.

Record config := mkCfg { cfg_chain : bool;          (* expr_wrapper = chain_call *)
                         cfg_short : bool;          (* if_style = short_circuit *)
                         cfg_host_lt_312 : bool }.  (* host interpreter older than 3.12 *)

(* utils.py *)
Definition ellipsis : expr := Constant CEllipsis.
Definition ctrue : expr := Constant CTrue.
Definition cfalse : expr := Constant CFalse.
Definition cnone : expr := Constant CNone.
Definition cint (z : Z) : expr := Constant (CInt z).
(* utils.int_literal: a negative integer is a minus sign applied to a literal (what the parser reads) *)
Definition nint (z : Z) : expr := if (z <? 0)%Z then UnaryOp USub (cint (- z)) else cint z.
Definition minus1 : expr := UnaryOp USub (cint 1).
(* the integer an index expression of the generated code denotes: nothing in utils.py, but what [cint] / [nint] are read back
   by in the reference semantics of unpacking (Unpack.v, UnpackNested.v) *)
Definition int_of (e : expr) : option Z :=
  match e with
  | Constant (CInt z) => Some z
  | UnaryOp USub (Constant (CInt z)) => Some (- z)%Z
  | _ => None
  end.
Lemma int_of_cint z : int_of (cint z) = Some z.
Proof. reflexivity. Qed.
Lemma int_of_nint z : int_of (nint z) = Some z.
Proof. unfold nint. destruct (z <? 0)%Z; cbn [int_of cint]; [rewrite Z.opp_involutive|]; reflexivity. Qed.
Lemma int_of_sel (st : bool) a b : int_of (if st then nint a else cint b) = Some (if st then a else b).
Proof. destruct st; [apply int_of_nint|apply int_of_cint]. Qed.
Definition lambda0 (body : expr) : expr := Lambda [] [] None [] [] None [] body.

Definition chain_runner : expr :=
  call (lambda0 (NamedExpr "_" (Lambda [] ["__"] None [] [] None [] (Name "_")))) [].

Definition chain_call (nodes : list expr) : expr :=
  match nodes with
  | [] => ellipsis
  | n0 :: rest => fold_left (fun c n => call c [n]) rest (call chain_runner [n0])
  end.

Definition wrap (cfg : config) (nodes : list expr) : expr :=
  match nodes with
  | [] => ellipsis
  | [x] => x
  | _ => if cfg_chain cfg then chain_call nodes else EList nodes
  end.

Definition convert_slice (a b c : option expr) : expr :=
  let v := fun o => match o with Some x => x | None => cnone end in
  call (Name "slice") [v a; v b; v c].

(* utils.convert_index: slices, also inside an index tuple, become slice() calls *)
Fixpoint convert_index (e : expr) : expr :=
  match e with
  | Slice a b c => convert_slice a b c
  | ETuple elts => ETuple (map convert_index elts)
  | _ => e
  end.

Lemma convert_index_plain i : (match i with Slice _ _ _ | ETuple _ => False | _ => True end) -> convert_index i = i.
Proof. destruct i; try reflexivity; contradiction. Qed.

(* expr_transform.py *)
Fixpoint target_names (t : expr) : res (list ident) :=
  match t with
  | Name i => ret [i]
  | ETuple l | EList l =>
      (fix go (l : list expr) : res (list ident) :=
         match l with
         | [] => ret []
         | x :: r => let! a := target_names x in let! b := go r in ret (a ++ b)
         end) l
  | _ => fail ERuntime
  end.

Lemma target_names_tuple_cons x r :
  target_names (ETuple (x :: r)) = let! a := target_names x in let! b := target_names (ETuple r) in ret (a ++ b).
Proof. reflexivity. Qed.

(* PendingLambda.__init__: the targets of the assignment expressions that belong to a lambda body: everything below
   the body except the bodies of nested lambdas (their default values do belong to it) *)
Fixpoint walrus_names (e : expr) {struct e} : list ident :=
  let wl := fun l => flat_map walrus_names l in
  let wo := fun (o : option expr) => match o with Some x => walrus_names x | None => [] end in
  let wg := fun (gs : list comprehension) =>
    flat_map (fun g => match g with (t, i, ifs, _) => walrus_names t ++ walrus_names i ++ flat_map walrus_names ifs end) gs in
  match e with
  | Name _ | Constant _ | Other _ => []
  | NamedExpr t v => t :: walrus_names v
  | ListComp x gs | SetComp x gs | GeneratorExp x gs => walrus_names x ++ wg gs
  | DictComp k v gs => walrus_names k ++ walrus_names v ++ wg gs
  | JoinedStr vs | BoolOp _ vs | EList vs | ETuple vs | ESet vs => wl vs
  | FormattedValue v _ f => walrus_names v ++ wo f
  | Starred v | UnaryOp _ v | Attribute v _ | YieldFrom v | Await v => walrus_names v
  | BinOp l _ r => walrus_names l ++ walrus_names r
  | EDict ks vs => flat_map wo ks ++ wl vs
  | Compare l _ cs => walrus_names l ++ wl cs
  | Subscript v sl => walrus_names v ++ walrus_names sl
  | Slice a b c => wo a ++ wo b ++ wo c
  | Call f args kws => walrus_names f ++ wl args ++ flat_map (fun kw => walrus_names (snd kw)) kws
  | Lambda _ _ _ _ kd _ de _ => flat_map wo kd ++ wl de
  | IfExp t b o => walrus_names t ++ walrus_names b ++ walrus_names o
  | Yield v => wo v
  end.

Definition opt_list (o : option ident) : list ident := match o with Some x => [x] | None => [] end.

(* NamespaceFunction.get_explicit_super: in a method, outside every lambda / comprehension of the source, a call `super()`
   of the builtin is written out as super(__class__, <first positional parameter>): the loops of the method become
   comprehensions, which have a frame of their own before Python 3.12.  Some fp: rewrite with that parameter. *)
Definition explicit_super (n : nsp) (inn : bool) (f : expr) (args : list expr) (kws : list (option ident * expr))
  : res (option ident) :=
  match f, args, kws with
  | Name fname, [], [] =>
      if negb (String.eqb fname "super") then ret None
      else match n_kind n with
      | NFunction =>
          if negb (n_is_method n) then ret None
          else match n_params n with
          | [] => ret None
          | fp :: _ =>
              if inn then ret None
              else match lookup_sym (n_syms n) "super" with
              | None => fail EKey
              | Some s =>
                  if negb (sy_global s) || sy_declglobal s then ret None
                  else if existsb (fun y => String.eqb (sy_name y) "super") (lk_syms (last (n_chain n) (self_link n))) then ret None
                  else ret (Some fp)
              end
          end
      | _ => ret None
      end
  | _, _, _ => ret None
  end.

(* the names the clauses of a comprehension bind (asynchronous comprehensions are refused) *)
Fixpoint gen_names (gs : list comprehension) : res (list ident) :=
  match gs with
  | [] => ret []
  | (t, _, _, is_async) :: r =>
      if is_async : bool then fail ERuntime
      else let! a := target_names t in let! b := gen_names r in ret (a ++ b)
  end.

(* the clauses in order: iterable (the first one in the enclosing scope), target, conditions; [tf] is transf itself *)
Section TGens.
  Variable tf : list ident -> bool -> expr -> res expr.
  Variables (bd : list ident) (inn : bool) (c : list ident).
  Fixpoint tgens_go (gs : list comprehension) (first : bool) {struct gs} : res (list comprehension) :=
    match gs with
    | [] => ret []
    | (t, i, ifs, a) :: r =>
        let! i' := (if first then tf bd inn i else tf c true i) in
        let! t' := tf c true t in
        let! ifs' := rmap (tf c true) ifs in
        let! r' := tgens_go r false in
        ret ((t', i', ifs', a) :: r')
    end.
End TGens.

Section Transf.
  Variable n : nsp.

  (* [bd]: names bound by the lambdas / comprehensions whose body contains the expression; [inn]: whether there is one *)
  Fixpoint transf (bd : list ident) (inn : bool) (e : expr) {struct e} : res expr :=
    let tl := fun c i l => rmap (transf c i) l in
    let topt := fun c i (o : option expr) =>
      match o with Some x => let! y := transf c i x in ret (Some y) | None => ret None end in
    let tgens := fun (c : list ident) (gs : list comprehension) =>
      tgens_go (fun c0 i0 e0 => transf c0 i0 e0) bd inn c gs true in
    match e with
    | Name i => get_load_name n bd inn i
    | NamedExpr t v =>
        let! v' := transf bd inn v in
        if mem t bd then ret (NamedExpr t v')            (* a local variable of the enclosing lambda *)
        else
        let! r := get_assign n t v' in
        match r with
        | NamedExpr _ _ => ret r
        | _ => let! ld := get_load_assigned n t in ret (Subscript (EList [r; ld]) minus1)
        end
    | ListComp x gs =>
        let! ns := gen_names gs in let c := ns ++ bd in
        let! gs' := tgens c gs in let! x' := transf c true x in ret (ListComp x' gs')
    | SetComp x gs =>
        let! ns := gen_names gs in let c := ns ++ bd in
        let! gs' := tgens c gs in let! x' := transf c true x in ret (SetComp x' gs')
    | GeneratorExp x gs =>
        let! ns := gen_names gs in let c := ns ++ bd in
        let! gs' := tgens c gs in let! x' := transf c true x in ret (GeneratorExp x' gs')
    | DictComp k v gs =>
        let! ns := gen_names gs in let c := ns ++ bd in
        let! gs' := tgens c gs in let! k' := transf c true k in let! v' := transf c true v in ret (DictComp k' v' gs')
    | Constant c => ret (Constant c)
    | JoinedStr vs => let! vs' := tl bd inn vs in ret (JoinedStr vs')
    | FormattedValue v c f => let! v' := transf bd inn v in let! f' := topt bd inn f in ret (FormattedValue v' c f')
    | Starred v => let! v' := transf bd inn v in ret (Starred v')
    | BinOp l o r => let! l' := transf bd inn l in let! r' := transf bd inn r in ret (BinOp l' o r')
    | BoolOp o vs => let! vs' := tl bd inn vs in ret (BoolOp o vs')
    | UnaryOp o v => let! v' := transf bd inn v in ret (UnaryOp o v')
    | EList l => let! l' := tl bd inn l in ret (EList l')
    | ETuple l => let! l' := tl bd inn l in ret (ETuple l')
    | ESet l => let! l' := tl bd inn l in ret (ESet l')
    | EDict ks vs => let! ks' := rmap (topt bd inn) ks in let! vs' := tl bd inn vs in ret (EDict ks' vs')
    | Compare l ops cs => let! l' := transf bd inn l in let! cs' := tl bd inn cs in ret (Compare l' ops cs')
    | Attribute v a => let! v' := transf bd inn v in ret (Attribute v' a)
    | Subscript v s => let! v' := transf bd inn v in let! s' := transf bd inn s in ret (Subscript v' s')
    | Slice a b c => let! a' := topt bd inn a in let! b' := topt bd inn b in let! c' := topt bd inn c in ret (Slice a' b' c')
    | Call f args kws =>
        let! sup := explicit_super n inn f args kws in
        match sup with
        | Some fp =>
            let! f' := transf bd inn f in
            let! c := get_load_name n bd inn "__class__" in
            let! s := get_load_name n bd inn fp in
            ret (Call f' [c; s] [])
        | None =>
            let! f' := transf bd inn f in let! args' := tl bd inn args in
            let! kws' := rmap (fun kw => let! v := transf bd inn (snd kw) in ret (fst kw, v)) kws in
            ret (Call f' args' kws')
        end
    | Lambda po ar va ko kd kw de body =>
        (* fields in AST order: args (kw_defaults, then defaults) in the enclosing scope, then the body in its own *)
        let! kd' := rmap (topt bd inn) kd in
        let! de' := tl bd inn de in
        let c := po ++ ar ++ ko ++ opt_list va ++ opt_list kw ++ walrus_names body ++ bd in
        let! body' := transf c true body in ret (Lambda po ar va ko kd' kw de' body')
    | IfExp t b o => let! t' := transf bd inn t in let! b' := transf bd inn b in let! o' := transf bd inn o in ret (IfExp t' b' o')
    | Yield _ | YieldFrom _ | Await _ => fail ERuntime     (* generators / coroutines are refused *)
    | Other k => ret (Other k)
    end.
End Transf.

Definition tr (n : nsp) (e : expr) : res expr := transf n [] false e.

Definition is_interrupt (s : stmt) : bool :=
  match s with SBreak | SContinue | SReturn _ => true | _ => false end.

(* "some statement of the block that the traversal reaches satisfies f": statements after a literal
   break/continue/return are never converted *)
Section ExLive.
  Variable f : stmt -> bool.
  Fixpoint ex_live (b : list stmt) : bool :=
    match b with [] => false | x :: r => f x || (if is_interrupt x then false else ex_live r) end.
End ExLive.

(* a `return` is converted somewhere inside s (not crossing def/class; dead code is never converted) *)
Fixpoint has_ret (s : stmt) : bool :=
  match s with
  | SReturn _ => true
  | SIf _ b o | SWhile _ b o | SFor _ _ b o => ex_live has_ret b || ex_live has_ret o
  | _ => false
  end.
Definition has_ret_block (b : list stmt) : bool := ex_live has_ret b.

(* converting s bumps interrupt_cnt of the loop whose body level s sits on *)
Fixpoint mi_loop (s : stmt) : bool :=
  match s with
  | SBreak | SContinue | SReturn _ => true
  | SIf _ b o => ex_live mi_loop b || ex_live mi_loop o
  | SWhile _ b o | SFor _ _ b o => has_ret_block b || ex_live mi_loop o
  | _ => false
  end.
Definition mi_block (b : list stmt) : bool := ex_live mi_loop b.

(* converting s bumps break_cnt of that loop *)
Fixpoint brk_loop (s : stmt) : bool :=
  match s with
  | SBreak | SReturn _ => true
  | SIf _ b o => ex_live brk_loop b || ex_live brk_loop o
  | SWhile _ b o | SFor _ _ b o => has_ret_block b || ex_live brk_loop o
  | _ => false
  end.
Definition brk_block (b : list stmt) : bool := ex_live brk_loop b.

(* _iter_branch opens a new guarded segment somewhere in b *)
Fixpoint has_boundary (bumps : stmt -> bool) (b : list stmt) : bool :=
  match b with
  | s :: ((_ :: _) as r) => if is_interrupt s then false else bumps s || has_boundary bumps r
  | _ => false
  end.

(* get_flow_ctrl_expr of the current loop (bumps = mi_loop) / function (bumps = has_ret) is called
   from one of the blocks that sit on its level *)
Fixpoint uses_flag_stmt (bumps : stmt -> bool) (s : stmt) : bool :=
  match s with
  | SIf _ b o =>
      (has_boundary bumps b || ex_live (uses_flag_stmt bumps) b) || (has_boundary bumps o || ex_live (uses_flag_stmt bumps) o)
  | SWhile _ _ o | SFor _ _ _ o => has_boundary bumps o || ex_live (uses_flag_stmt bumps) o
  | _ => false
  end.
Definition uses_flag (bumps : stmt -> bool) (b : list stmt) : bool :=
  has_boundary bumps b || ex_live (uses_flag_stmt bumps) b.

Definition path := list nat.   (* position of a statement, innermost index first *)
Fixpoint path_str (p : path) : string :=
  match p with
  | [] => ""
  | i :: r => ncode i ++ "_" ++ path_str r
  end%string.

Inductive loopkind := LWhile | LFor.
Record loopctx := mkLoop { lp_kind : loopkind; lp_path : path; lp_intr_used : bool; lp_has_break : bool }.

Definition break_name (p : path) : ident := ol "break" (path_str p).
Definition intr_name (p : path) : ident := ol "interrupt" (path_str p).
Definition it_name (p : path) : ident := ol "it" (path_str p).

Record ctx := mkCtx { c_nsp : nsp; c_loops : list loopctx (* innermost first *); c_ret_used : bool }.

Definition set_break (l : loopctx) : expr :=
  match lp_kind l with
  | LWhile => NamedExpr (break_name (lp_path l)) ctrue
  | LFor => call (Name "setattr") [Name (it_name (lp_path l)); cstr "_break"; ctrue]
  end.

(* the guard used by _iter_branch in this context: (which statements open a new segment, flag) *)
Definition guard_of (c : ctx) : (stmt -> bool) * option ident :=
  match c_loops c with
  | l :: _ => (mi_loop, Some (intr_name (lp_path l)))
  | [] => match n_kind (c_nsp c) with
          | NFunction => (has_ret, Some (ret_flag (n_id (c_nsp c))))
          | _ => ((fun _ => false), None)
          end
  end.

Definition guarded (cfg : config) (flag : ident) (rest : list expr) : expr :=
  IfExp (UnaryOp Not (Name flag)) (wrap cfg rest) ellipsis.

Definition find_inner (n : nsp) (name : ident) (ln : Z) : option nsp :=
  find (fun m => Z.eqb (n_lineno m) ln && String.eqb (n_name m) name) (n_inner n).

(* sorted(set(...)) on ASCII identifiers *)
Fixpoint insert_sorted (x : ident) (l : list ident) : list ident :=
  match l with
  | [] => [x]
  | y :: r => if String.eqb x y then l else if String.ltb x y then x :: l else y :: insert_sorted x r
  end.
Definition sort_dedup (l : list ident) : list ident := fold_right insert_sorted [] l.

(* PendingAssign *)
Section Assign.
  Variable n : nsp.

  Definition assign_subscript (v s value : expr) : res expr :=
    let! v' := tr n v in
    let! s1 := tr n s in
    ret (call (Attribute v' "__setitem__") [convert_index s1; value]).

  Definition assign_attribute (v : expr) (a : ident) (value : expr) : res expr :=
    let! v' := tr n v in ret (call (Name "setattr") [v'; cstr a; value]).

  (* the loop of assign_tuple_list; [f] is assign_auto itself *)
  Section PatternGo.
    Variable f : path -> expr -> expr -> res (list expr).
    Variable tmp : expr.
    Variable len : Z.
    Variable p : path.
    Fixpoint pattern_go (elts : list expr) (index : nat) (starred : bool) {struct elts} : res (list expr) :=
      match elts with
      | [] => ret []
      | t :: r =>
          let idx := Z.of_nat index in
          match t with
          | Starred t' =>
              if starred then fail ESyntax
              else
                let upper := (idx - len + 1)%Z in
                let sub := call (Name "list")
                             [Subscript tmp (Slice (Some (cint idx)) (if Z.eqb upper 0 then None else Some (nint upper)) None)] in
                let! a := f (index :: p) t' sub in
                let! b := pattern_go r (S index) true in ret (a ++ b)
          | _ =>
              let sub := Subscript tmp (if starred then nint (idx - len)%Z else cint idx) in
              let! a := f (index :: p) t sub in
              let! b := pattern_go r (S index) starred in ret (a ++ b)
          end
      end.
  End PatternGo.

  Fixpoint assign_auto (p : path) (target value : expr) {struct target} : res (list expr) :=
    let pattern := fun (elts : list expr) =>
      let tmp := ol "assign" (path_str p) in
      let! rest := pattern_go (fun p0 t0 v0 => assign_auto p0 t0 v0) (Name tmp) (Z.of_nat (length elts)) p elts 0 false in
      ret (NamedExpr tmp (call (Name "tuple") [value]) :: rest) in
    match target with
    | Name i => let! e := get_assign n i value in ret [e]
    | Attribute v a => let! e := assign_attribute v a value in ret [e]
    | Subscript v s => let! e := assign_subscript v s value in ret [e]
    | ETuple elts => pattern elts
    | EList elts => pattern elts
    | _ => fail ENotImpl
    end.
End Assign.

Lemma assign_name g p x sub : n_kind g = NGlobal -> assign_auto g p (Name x) sub = inl [NamedExpr x sub].
Proof. intros Hg. cbn [assign_auto]. rewrite (get_assign_global g x sub Hg). reflexivity. Qed.

Lemma starred_or_plain (t : expr) : (exists t', t = Starred t') \/ (forall t', t <> Starred t').
Proof. destruct t; try (right; intros t'; discriminate). left. eexists. reflexivity. Qed.

Lemma pattern_go_plain f tmp len p t r i st : (forall t', t <> Starred t') ->
  pattern_go f tmp len p (t :: r) i st =
  (let! a := f (i :: p) t (Subscript tmp (if st then nint (Z.of_nat i - len) else cint (Z.of_nat i))) in
   let! b := pattern_go f tmp len p r (S i) st in ret (a ++ b)).
Proof. intros Hns. destruct t; try reflexivity. destruct (Hns _ eq_refl). Qed.

(* the value goes to a temporary first: several targets, or one attribute/subscript target (value before the
   target's object and index) *)
Definition shared_value (targets : list expr) : bool :=
  match targets with
  | [] => false
  | t :: r =>
      match r with
      | [] => match t with Attribute _ _ | Subscript _ _ => true | _ => false end
      | _ :: _ => true
      end
  end.

Definition aug_expr (target : expr) (op : binop) (value fallback : expr) : expr :=
  IfExp (call (Name "hasattr") [target; cstr (aug_op_name op)])
        (call (Attribute target (aug_op_name op)) [value])
        fallback.

Definition lower_augassign (n : nsp) (p : path) (target : expr) (op : binop) (value : expr) : res (list expr) :=
  let! v := tr n value in
  let tmp := ol "augass" (path_str p) in
  match target with
  | Name i =>
      let! t := get_load_name n [] false i in
      let! fb := get_assign n i (BinOp t op v) in
      let! st := get_assign n i (call (Attribute t (aug_op_name op)) [v]) in
      ret [IfExp (call (Name "hasattr") [t; cstr (aug_op_name op)]) st fb]
  | Subscript par s =>
      let tmps := ol "sllice" (path_str p) in
      let tmpo := ol "augobj" (path_str p) in
      let! par' := tr n par in
      let! s' := tr n (convert_index s) in
      ret [NamedExpr tmpo par';
           NamedExpr tmps s';
           NamedExpr tmp (Subscript (Name tmpo) (Name tmps));
           call (Attribute (Name tmpo) "__setitem__")
                [Name tmps; aug_expr (Name tmp) op v (NamedExpr tmp (BinOp (Name tmp) op v))]]
  | Attribute par a =>
      let tmpo := ol "augobj" (path_str p) in
      let! par' := tr n par in
      ret [NamedExpr tmpo par';
           NamedExpr tmp (Attribute (Name tmpo) a);
           call (Name "setattr") [Name tmpo; cstr a; aug_expr (Name tmp) op v (NamedExpr tmp (BinOp (Name tmp) op v))]]
  | _ => fail ENotImpl
  end.

(* str.split(".")[0] and "." in name *)
Fixpoint before_dot (s : string) : string :=
  match s with
  | EmptyString => EmptyString
  | String c r => if Ascii.eqb c "."%char then EmptyString else String c (before_dot r)
  end.
Fixpoint has_dot (s : string) : bool :=
  match s with
  | EmptyString => false
  | String c r => Ascii.eqb c "."%char || has_dot r
  end.

Definition lower_import (n : nsp) (names : list (ident * option ident)) : res (list expr) :=
  rmap (fun al =>
          match snd al with
          | None =>
              if has_dot (fst al)
              then get_assign n (before_dot (fst al)) (call (Name "__import__") [cstr (fst al)])   (* binds the top-level package *)
              else get_assign n (fst al) (call (Attribute (Name "__ol_importlib") "import_module") [cstr (fst al)])
          | Some a => get_assign n a (call (Attribute (Name "__ol_importlib") "import_module") [cstr (fst al)])
          end) names.

Definition lower_importfrom (n : nsp) (p : path) (module : option ident) (names : list (ident * option ident)) (level : Z)
  : res (list expr) :=
  let tmp := ol "mod" (path_str p) in
  let modname := match module with Some m => m | None => "" end in
  let imp := NamedExpr tmp (call (Name "__import__")
                 [cstr modname; call (Name "globals") []; call (Name "locals") [];
                  EList (map (fun al => cstr (fst al)) names); cint level]) in
  let! binds := rmap (fun al =>
          let asname := match snd al with Some a => a | None => fst al end in
          if String.eqb (fst al) "*" then fail ERuntime
          else get_assign n asname (Attribute (Name tmp) (fst al))) names in
  ret (imp :: binds).

(* the two hooks type.__new__ turns into class methods when (and only when) the member is a plain function: the class is
   created empty and filled with setattr, so the converter does it - unconditionally without decorators, behind a run-time test
   of what the decorators returned otherwise (fix: `@classmethod` written out was wrapped twice) *)
Definition is_class_hook (name : ident) : bool := String.eqb name "__init_subclass__" || String.eqb name "__class_getitem__".
Definition hook_wrap (p : path) (is_method : bool) (name : ident) (decs : list expr) (decorated : expr) : expr :=
  if is_method && is_class_hook name then
    match decs with
    | [] => call (Name "classmethod") [decorated]
    | _ =>
        let hook := ol "hook" (path_str p) in
        call (Lambda [] [hook] None [] [] None []
                (IfExp (Compare (call (Name "type") [Name hook]) [Is] [call (Name "type") [lambda0 (cint 0)]])
                       (call (Name "classmethod") [Name hook]) (Name hook)))
             [decorated]
    end
  else decorated.

(* the call that creates the (still empty) class.  Python evaluates the bases, then the keywords in the order written,
   `metaclass=` among them: with a metaclass keyword bases and keywords go - in that order - to a helper that takes the
   metaclass out of the keywords (fix: the metaclass expression used to be the callee, evaluated before the bases) *)
Definition is_meta_kw (kw : option ident * expr) : bool :=
  match fst kw with Some k => String.eqb k "metaclass" | None => false end.
Definition class_create (p : path) (name : ident) (bases' : list expr) (kws' : list (option ident * expr)) : expr :=
  if existsb is_meta_kw kws' then
    let b := ol "bases" (path_str p) in
    let k := ol "kwds" (path_str p) in
    Call (Lambda [] [b] None [] [] (Some k) []
            (Call (call (Attribute (Name k) "pop") [cstr "metaclass"]) [cstr name; Name b; EDict [] []] [(None, Name k)]))
         [ETuple bases'] kws'
  else Call (Name "type") [cstr name; ETuple bases'; EDict [] []] kws'.

Section Stmts.
  Variable cfg : config.

  Definition while_comp (var : ident) (body test : expr) : expr :=
    ListComp body
      [(Name var,
        call (Attribute (Name "__ol_itertools") "takewhile")
             [Lambda [] [var] None [] [] None [] test; call (Attribute (Name "__ol_itertools") "count") []],
        [], false)].

  (* [isb]: the source condition is an and/or expression *)
  Definition if_result (isb : bool) (test : expr) (body orelse : list expr) : expr :=
    if cfg_short cfg then
      match orelse with
      | [] => BoolOp And [(if isb then IfExp test ctrue cfalse else test); wrap cfg body]
      | _ =>
          let once := if isb then IfExp test ctrue cfalse else UnaryOp Not (UnaryOp Not test) in
          let semi := BoolOp And [once; EList [wrap cfg body]] in
          match wrap cfg orelse with
          | BoolOp Or vs => BoolOp Or (semi :: vs)           (* a long elif chain stays flat *)
          | oe => BoolOp Or [semi; oe]
          end
      end
    else IfExp test (wrap cfg body) (wrap cfg orelse).

  (* _iter_branch: [i] = index of the first statement of b inside its block; [br] = branch number;
     [L] is lower_stmt itself *)
  Section Block.
    Variable L : ctx -> path -> stmt -> res (list expr).
    Fixpoint lower_block (c : ctx) (p : path) (br : nat) (i : nat) (b : list stmt) {struct b} : res (list expr) :=
      match b with
      | [] => ret []
      | s :: rest =>
          let! es := L c (i :: br :: p) s in
          if is_interrupt s then ret es
          else match rest with
               | [] => ret es
               | _ =>
                   let! rs := lower_block c p br (S i) rest in
                   match guard_of c with
                   | (bumps, Some flag) => if bumps s then ret (es ++ [guarded cfg flag rs]) else ret (es ++ rs)
                   | (_, None) => ret (es ++ rs)
                   end
               end
      end.
  End Block.

  Fixpoint lower_stmt (c : ctx) (p : path) (s : stmt) {struct s} : res (list expr) :=
    let block := lower_block (fun c0 p0 s0 => lower_stmt c0 p0 s0) in
    let n := c_nsp c in
    match s with
    | SExpr e => let! e' := tr n e in ret [e']
    | SPass => ret [ellipsis]
    | SGlobal _ | SNonlocal _ => ret []
    | SUnsupported _ => fail ERuntime
    | SIf test b o =>
        let! b' := block c p 0 0 b in
        let! o' := block c p 1 0 o in
        let! t := tr n test in
        ret [if_result (match test with BoolOp _ _ => true | _ => false end) t b' o']
    | SWhile test b o =>
        let has_break := brk_block b in
        let me := mkLoop LWhile p (uses_flag mi_loop b) has_break in
        let! b' := block (mkCtx n (me :: c_loops c) (c_ret_used c)) p 0 0 b in
        let! o' := block c p 1 0 o in
        let! t0 := tr n test in
        (* an and/or condition answers True/False: takewhile() must not test the deciding operand again *)
        let t := match test with BoolOp _ _ => IfExp t0 ctrue cfalse | _ => t0 end in
        let brk := break_name p in
        let body := (if lp_intr_used me then [NamedExpr (intr_name p) cfalse] else []) ++ b' in
        let test' := if has_break then BoolOp And [UnaryOp Not (Name brk); t] else t in
        let orelse := if has_break then IfExp (UnaryOp Not (Name brk)) (wrap cfg o') ellipsis else wrap cfg o' in
        ret ((if has_break then [NamedExpr brk cfalse] else [])
             ++ [while_comp (ol "while" (path_str p)) (wrap cfg body) test']
             ++ (match o' with [] => [] | _ => [orelse] end))
    | SFor target iter b o =>
        let has_break := brk_block b in
        let me := mkLoop LFor p (uses_flag mi_loop b) has_break in
        let! b' := block (mkCtx n (me :: c_loops c) (c_ret_used c)) p 0 0 b in
        let! o' := block c p 1 0 o in
        let ftmp := ol "for" (path_str p) in
        let! bind := assign_auto n (2 :: p) target (Name ftmp) in
        let! it := tr n iter in
        if negb (mi_block b) && (match o with [] => true | _ => false end) then
          ret [ListComp (wrap cfg (bind ++ b')) [(Name ftmp, it, [], false)]]
        else
          let body := (if lp_intr_used me then [NamedExpr (intr_name p) cfalse] else []) ++ bind ++ b' in
          let itn := it_name p in
          let orelse :=
            if has_break then IfExp (UnaryOp Not (Attribute (Name itn) "_break")) (wrap cfg o') ellipsis
            else wrap cfg o' in
          ret ((if has_break then [NamedExpr itn (call (Name "__ol_iter_wrapper") [it])] else [])
               ++ [ListComp (wrap cfg body) [(Name ftmp, (if has_break then Name itn else it), [], false)]]
               ++ (match o' with [] => [] | _ => [orelse] end))
    | SBreak =>
        match c_loops c with
        | [] => fail ESyntax
        | l :: _ => ret [EList (set_break l :: (if lp_intr_used l then [NamedExpr (intr_name (lp_path l)) ctrue] else []))]
        end
    | SContinue =>
        match c_loops c with
        | [] => fail ESyntax
        | l :: _ => ret [EList (if lp_intr_used l then [NamedExpr (intr_name (lp_path l)) ctrue] else [])]
        end
    | SReturn v =>
        match n_kind n with
        | NFunction =>
            let! ve := match v with
                       | Some x => let! x' := tr n x in ret [NamedExpr (retv_name (n_id n)) x']
                       | None => ret []
                       end in
            ret [EList (ve
                        ++ map set_break (rev (c_loops c))                                   (* outermost first *)
                        ++ flat_map (fun l => if lp_intr_used l then [NamedExpr (intr_name (lp_path l)) ctrue] else [])
                                    (c_loops c)                                              (* innermost first *)
                        ++ (if c_ret_used c then [NamedExpr (ret_flag (n_id n)) ctrue] else []))]
        | _ => fail ESyntax
        end
    | SAssign targets value =>
        let! v0 := tr n value in
        let shared := shared_value targets in
        let tmp := ol "assign" (path_str p) in
        let v := if shared then Name tmp else v0 in
        let! stores :=
          (fix go (ts : list expr) (k : nat) : res (list expr) :=
             match ts with
             | [] => ret []
             | t :: r => let! a := assign_auto n (k :: p) t v in let! b := go r (S k) in ret (a ++ b)
             end) targets 0 in
        ret ((if shared then [NamedExpr tmp v0] else []) ++ stores)
    | SAnnAssign target None => ret []
    | SAnnAssign target (Some value) =>
        let! v0 := tr n value in
        let shared := shared_value [target] in
        let tmp := ol "assign" (path_str p) in
        let! stores := assign_auto n (0 :: p) target (if shared then Name tmp else v0) in
        ret ((if shared then [NamedExpr tmp v0] else []) ++ stores)
    | SAugAssign target op value => lower_augassign n p target op value
    | SImport names => lower_import n names
    | SImportFrom m names lv => lower_importfrom n p m names lv
    | SFunctionDef name ln args b decs =>
        match find_inner n name ln with
        | None => fail ERuntime
        | Some fn =>
            match n_kind fn with
            | NFunction =>
                let! defaults := rmap (tr n) (a_defaults args) in
                let! kwdefaults := rmap (fun d => match d with Some x => let! y := tr n x in ret (Some y) | None => ret None end)
                                        (a_kw_defaults args) in
                let ret_used := uses_flag has_ret b in
                let! b' := block (mkCtx (set_params fn (a_posonly args ++ a_args args)) [] ret_used) p 0 0 b in
                let retv := retv_name (n_id fn) in
                let body :=
                  [NamedExpr retv cnone]
                  ++ (if n_zero_super fn then [Name "__class__"] else [])
                  ++ (if ret_used then [NamedExpr (ret_flag (n_id fn)) cfalse] else [])
                  ++ (match n_inner_nonlocal fn with
                      | [] => []
                      | _ => let ps := sort_dedup (n_nonlocal_params fn) in
                             [NamedExpr (ol "nonlocal" (ncode (n_id fn)))
                                        (EDict (map (fun x => Some (cstr x)) ps) (map Name ps))]
                      end)
                  ++ (if cfg_chain cfg then [wrap cfg b'] else b')
                  ++ [Name retv] in
                let lam := Lambda (a_posonly args) (a_args args) (a_vararg args) (a_kwonly args) kwdefaults
                                  (a_kwarg args) defaults (Subscript (EList body) minus1) in
                let! decorated :=
                  (fix go (ds : list expr) (acc : expr) : res expr :=
                     match ds with
                     | [] => ret acc
                     | d :: r => let! d' := tr n d in go r (call d' [acc])
                     end) (rev decs) lam in
                let final := hook_wrap p (n_is_method fn) name decs decorated in
                let! e := get_assign n name final in ret [e]
            | _ => fail EAssert
            end
        end
    | SClassDef name ln bases kws b decs =>
        match find_inner n name ln with
        | None => fail ERuntime
        | Some cn =>
            match n_kind cn with
            | NClass =>
                let! b' := block (mkCtx cn [] false) p 0 0 b in
                let! bases' := rmap (tr n) bases in
                let! kws' := rmap (fun kw => let! v := tr n (snd kw) in ret (fst kw, v)) kws in
                let! create := get_assign n name (class_create p name bases' kws') in
                let! load1 := get_load_name n [] false name in
                let cd := ol "classnsp" (ncode (n_id cn)) in
                let loader := ol "loader" (path_str p) in
                let class_body := [NamedExpr "__class__" load1; NamedExpr cd (EDict [] [])] ++ b' ++ [Name cd] in
                let! decorated :=
                  rmap (fun d => let! d' := tr n d in get_assign n name (call d' [load1])) (rev decs) in
                ret ([create;
                     NamedExpr loader (lambda0 (Subscript (EList class_body) minus1));
                     ListComp (call (Name "setattr") [load1; Name (ol "key" (path_str p)); Name (ol "value" (path_str p))])
                              [(ETuple [Name (ol "key" (path_str p)); Name (ol "value" (path_str p))],
                                call (Attribute (call (Name loader) []) "items") [], [], false)]] ++ decorated)
            | _ => fail EAssert
            end
        end
    end.
End Stmts.

(* the three flags of NamespaceGlobal: set when a statement of that kind is *visited* *)
Fixpoint visits (f : stmt -> bool) (s : stmt) : bool :=
  f s ||
  match s with
  | SIf _ b o | SWhile _ b o | SFor _ _ b o => ex_live (visits f) b || ex_live (visits f) o
  | SFunctionDef _ _ _ b _ | SClassDef _ _ _ _ b _ => ex_live (visits f) b
  | _ => false
  end.

Definition import_lib (lib : string) : expr := NamedExpr ("__ol_" ++ lib)%string (call (Name "__import__") [cstr lib]).

Definition lower_module (cfg : config) (root : symtab) (body : list stmt) : res expr :=
  let! g := generate_nsp (cfg_host_lt_312 cfg) root in
  let c := mkCtx g [] false in
  (* PendingModule converts its statements one after the other; at module level no statement can be a
     (legal) break/continue/return, so this is _iter_branch without guards *)
  let! stmts := lower_block cfg (fun c0 p0 s0 => lower_stmt cfg c0 p0 s0) c [] 0 0 body in
  let any := fun f => existsb (visits f) body in
  let use_itertools := any (fun s => match s with SWhile _ _ _ => true | _ => false end) in
  let use_importlib := any (fun s => match s with SImport _ => true | _ => false end) in
  let use_preset := any (fun s => match s with SFor _ _ b _ => brk_block b | _ => false end) in
  ret (wrap cfg ((if use_preset then [preset_iter_wrapper] else [])
                 ++ (if use_importlib then [import_lib "importlib"] else [])
                 ++ (if use_itertools then [import_lib "itertools"] else [])
                 ++ stmts)).

Lemma ex_live_cons f s r : ex_live f (s :: r) = f s || (if is_interrupt s then false else ex_live f r).
Proof. reflexivity. Qed.

Lemma ex_live_impl (f g : stmt -> bool) b :
  Forall (fun s => f s = true -> g s = true) b -> ex_live f b = true -> ex_live g b = true.
Proof.
  induction b as [|s r IH]; intros HF H; [discriminate|]. inversion HF; subst.
  rewrite ex_live_cons in *. apply orb_true_iff in H. apply orb_true_iff.
  destruct H as [H|H]; [left; auto|right]. destruct (is_interrupt s); [discriminate|]. auto.
Qed.

Lemma orb_impl a b c d : (a = true -> c = true) -> (b = true -> d = true) -> a || b = true -> c || d = true.
Proof. rewrite !orb_true_iff. tauto. Qed.

Lemma has_ret_brk s : has_ret s = true -> brk_loop s = true.
Proof.
  induction s using stmt_ind'; cbn [has_ret brk_loop]; try discriminate; try reflexivity;
    apply orb_impl; eauto using ex_live_impl.
Qed.

Lemma brk_mi s : brk_loop s = true -> mi_loop s = true.
Proof.
  induction s using stmt_ind'; cbn [brk_loop mi_loop]; try discriminate; try reflexivity;
    apply orb_impl; eauto using ex_live_impl.
Qed.

Lemma has_ret_mi s : has_ret s = true -> mi_loop s = true.
Proof. intros H. apply brk_mi, has_ret_brk, H. Qed.

Lemma ex_live_all (f g : stmt -> bool) b : (forall s, f s = true -> g s = true) -> ex_live f b = true -> ex_live g b = true.
Proof. intros H. apply ex_live_impl, Forall_forall. intros s _. apply H. Qed.

Lemma has_boundary_cons2 bumps s s2 r :
  has_boundary bumps (s :: s2 :: r) = if is_interrupt s then false else bumps s || has_boundary bumps (s2 :: r).
Proof. reflexivity. Qed.

Lemma has_boundary_mi b : has_boundary mi_loop b = true -> mi_block b = true.
Proof.
  induction b as [|s r IH]; [discriminate|]. destruct r as [|s2 r2]; [discriminate|].
  rewrite has_boundary_cons2. unfold mi_block. rewrite ex_live_cons. destruct (is_interrupt s); [discriminate|].
  intros H. apply orb_true_iff in H. apply orb_true_iff. destruct H as [H|H]; [left; exact H|right; apply IH; exact H].
Qed.

(* [uses_flag] of a block is defined from [uses_flag_stmt] of its statements, which has [uses_flag] of the nested blocks
   written out in its body.  The block step comes first and takes the claim about the statements of the block as a [Forall]
   hypothesis: that is the shape of the induction hypotheses of [stmt_ind'], so [uses_flag_stmt_mi] applies it inside the
   induction and [uses_flag_mi] after it *)
Lemma uses_flag_le b : Forall (fun s => uses_flag_stmt mi_loop s = true -> mi_loop s = true) b ->
  uses_flag mi_loop b = true -> mi_block b = true.
Proof.
  intros HF H. apply orb_true_iff in H. destruct H as [H|H]; [apply has_boundary_mi; exact H|exact (ex_live_impl _ _ _ HF H)].
Qed.

Lemma uses_flag_stmt_mi s : uses_flag_stmt mi_loop s = true -> mi_loop s = true.
Proof.
  induction s using stmt_ind'; cbn [uses_flag_stmt mi_loop]; try discriminate.
  - apply orb_impl; apply uses_flag_le; assumption.
  - intros Hx. apply orb_true_iff. right. eapply uses_flag_le; eassumption.
  - intros Hx. apply orb_true_iff. right. eapply uses_flag_le; eassumption.
Qed.

Lemma uses_flag_mi b : uses_flag mi_loop b = true -> mi_block b = true.
Proof. apply uses_flag_le, Forall_forall. intros s _. apply uses_flag_stmt_mi. Qed.

Lemma has_boundary_false b : has_boundary (fun _ => false) b = false.
Proof.
  induction b as [|s r IH]; [reflexivity|]. destruct r as [|s2 r2]; [reflexivity|].
  rewrite has_boundary_cons2. destruct (is_interrupt s); [reflexivity|exact IH].
Qed.

Lemma ex_live_false f b : Forall (fun s => f s = false) b -> ex_live f b = false.
Proof.
  induction 1 as [|s r Hs Hr IH]; [reflexivity|]. rewrite ex_live_cons, Hs. destruct (is_interrupt s); [reflexivity|exact IH].
Qed.

Lemma uses_flag_stmt_false s : uses_flag_stmt (fun _ => false) s = false.
Proof.
  induction s using stmt_ind'; try reflexivity; cbn [uses_flag_stmt]; rewrite ?has_boundary_false, ?ex_live_false by assumption; reflexivity.
Qed.

Lemma uses_flag_false b : uses_flag (fun _ => false) b = false.
Proof.
  unfold uses_flag. rewrite has_boundary_false. apply ex_live_false. apply Forall_forall. intros s _. apply uses_flag_stmt_false.
Qed.

Lemma lower_block_cons cfg L c p br i st rest es :
  lower_block cfg L c p br i (st :: rest) = inl es ->
  exists es1, L c (i :: br :: p) st = inl es1 /\
    (if is_interrupt st then es = es1
     else match rest with
          | [] => es = es1
          | _ => exists rs, lower_block cfg L c p br (S i) rest = inl rs /\
                   es = match guard_of c with
                        | (bumps, Some flag) => if bumps st then es1 ++ [guarded cfg flag rs] else es1 ++ rs
                        | (_, None) => es1 ++ rs
                        end
          end).
Proof.
  cbn [lower_block]. intros H. apply rbind_inl in H as (es1 & E1 & H). exists es1. split; [exact E1|].
  destruct (is_interrupt st); [injection H as <-; reflexivity|].
  destruct rest as [|s2 r2]; [injection H as <-; reflexivity|].
  apply rbind_inl in H as (rs & Er & H). exists rs. split; [exact Er|].
  destruct (guard_of c) as [bumps [flag|]].
  - destruct (bumps st); injection H as <-; reflexivity.
  - injection H as <-; reflexivity.
Qed.

Lemma block_cons cfg L c p br i s rest es rs :
  L c (i :: br :: p) s = inl es -> is_interrupt s = false -> fst (guard_of c) s = false ->
  lower_block cfg L c p br (S i) rest = inl rs ->
  lower_block cfg L c p br i (s :: rest) = inl (es ++ rs).
Proof.
  intros HL Hi Hb Hr. cbn [lower_block]. rewrite HL. cbn [rbind]. rewrite Hi.
  destruct rest as [|r0 rest']; [injection Hr as <-; rewrite app_nil_r; reflexivity|].
  rewrite Hr. cbn [rbind]. destruct (guard_of c) as [bumps [flag|]]; [cbn [fst] in Hb; rewrite Hb|]; reflexivity.
Qed.

Lemma block_after_guard cfg L c p br i s rest es rs bumps flag :
  rest <> [] -> L c (i :: br :: p) s = inl es -> is_interrupt s = false ->
  lower_block cfg L c p br (S i) rest = inl rs ->
  guard_of c = (bumps, Some flag) -> bumps s = true ->
  lower_block cfg L c p br i (s :: rest) = inl (es ++ [guarded cfg flag rs]).
Proof.
  intros Hne HL Hi Hr Hg Hb. cbn [lower_block]. rewrite HL. cbn [rbind]. rewrite Hi.
  destruct rest as [|r0 rest']; [contradiction|]. rewrite Hr. cbn [rbind]. rewrite Hg, Hb. reflexivity.
Qed.

Lemma guard_of_SExpr c e : fst (guard_of c) (SExpr e) = false.
Proof. unfold guard_of. destruct (c_loops c); [destruct (n_kind (c_nsp c))|]; reflexivity. Qed.

(* what precedes the statements of a module: the iterator-wrapper preset and the two library imports, each iff a statement
   that needs it is visited *)
Definition prelude (body : list stmt) : list expr :=
  let any := fun f => existsb (visits f) body in
  (if any (fun s => match s with SFor _ _ b _ => brk_block b | _ => false end) then [preset_iter_wrapper] else [])
  ++ (if any (fun s => match s with SImport _ => true | _ => false end) then [import_lib "importlib"] else [])
  ++ (if any (fun s => match s with SWhile _ _ _ => true | _ => false end) then [import_lib "itertools"] else []).

Lemma lower_module_eq cfg st g body es :
  generate_nsp (cfg_host_lt_312 cfg) st = inl g ->
  lower_block cfg (fun c0 p0 s0 => lower_stmt cfg c0 p0 s0) (mkCtx g [] false) [] 0 0 body = inl es ->
  lower_module cfg st body = inl (wrap cfg (prelude body ++ es)).
Proof.
  intros Hg Hb. unfold lower_module, prelude. rewrite Hg. cbn [rbind]. rewrite Hb. cbn [rbind ret].
  rewrite <- !app_assoc. reflexivity.
Qed.

Lemma lower_module_shape cfg st body e : lower_module cfg st body = inl e ->
  exists g es,
    generate_nsp (cfg_host_lt_312 cfg) st = inl g /\
    lower_block cfg (fun c p s => lower_stmt cfg c p s) (mkCtx g [] false) [] 0 0 body = inl es /\
    e = wrap cfg (prelude body ++ es).
Proof.
  unfold lower_module, prelude. intros H. apply rbind_inl in H as (g & Hg & H). apply rbind_inl in H as (es & Hes & H).
  injection H as <-. exists g, es. rewrite <- !app_assoc. split; [exact Hg|]. split; [exact Hes|reflexivity].
Qed.
