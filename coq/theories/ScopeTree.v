(* C06: generate_nsp never lets an inner namespace reach into a dictionary the owning function does not fill.

   Every entry (x -> o) of a namespace's outer map - "x lives in the dictionary of function o" - names a FUNCTION namespace
   on the chain of enclosing namespaces whose inner_nonlocal_names contain x (so that function itself stores x in its
   dictionary).  Proved for the namespace tree of EVERY symbol table on which generate_nsp succeeds. *)
From Coq Require Import String List ZArith Bool Arith.
From OL Require Import PyAst Namespace Lower Scope.
Import ListNotations.
Local Open Scope string_scope.
Local Open Scope list_scope.

Section SymtabInd.
  Variable P : symtab -> Prop.
  Hypothesis H : forall k name ln syms fr nl ps ms ch, Forall P ch -> P (ST k name ln syms fr nl ps ms ch).
  Fixpoint symtab_ind' (t : symtab) : P t :=
    match t with
    | ST k name ln syms fr nl ps ms ch =>
        H k name ln syms fr nl ps ms ch
          ((fix fl (l : list symtab) : Forall P l :=
              match l with [] => Forall_nil _ | x :: r => Forall_cons _ (symtab_ind' x) (fl r) end) ch)
    end.
End SymtabInd.

Definition captured_of (marks : list mark) (i : nat) : list ident :=
  map (fun m => snd (fst m)) (filter (fun m => Nat.eqb (fst (fst m)) i) marks).

Lemma captured_of_in marks o x p : List.In (o, x, p) marks -> mem x (captured_of marks o) = true.
Proof.
  intros H. unfold mem. apply existsb_exists. exists x. split; [|apply String.eqb_refl].
  unfold captured_of. apply in_map_iff. exists (o, x, p). split; [reflexivity|]. apply filter_In. split; [exact H|]. cbn. apply Nat.eqb_refl.
Qed.

(* the stack generate_nsp searches and the chain fill records describe the same ancestors *)
Definition matches (marksAll : list mark) (a : anc) (l : link) : Prop :=
  lk_id l = an_id a /\ lk_kind l = an_kind a /\ lk_inner_nonlocal l = captured_of marksAll (an_id a).

Lemma find_origin_in : forall stack x o p, find_origin stack x = inl (o, p) ->
  exists a, List.In a stack /\ an_id a = o /\ an_kind a = NFunction.
Proof.
  induction stack as [|a r IH]; intros x o p H; cbn [find_origin] in H; [discriminate|].
  destruct (an_kind a) eqn:Ek.
  - discriminate.
  - destruct (lookup_sym (an_syms a) x) as [s|]; [|discriminate]. destruct (sy_local s).
    + injection H as <- _. exists a. split; [left; reflexivity|]. split; [reflexivity|exact Ek].
    + destruct (IH x o p H) as [b [Hb Hq]]. exists b. split; [right; exact Hb|exact Hq].
  - destruct (IH x o p H) as [b [Hb Hq]]. exists b. split; [right; exact Hb|exact Hq].
Qed.

Definition entry_ok (stack : list anc) (marks : list mark) (kv : ident * nat) : Prop :=
  (exists p, List.In (snd kv, fst kv, p) marks) /\ exists a, List.In a stack /\ an_id a = snd kv /\ an_kind a = NFunction.

Lemma entry_ok_cons stack x o p omap marks :
  find_origin stack x = inl (o, p) -> Forall (entry_ok stack marks) omap ->
  Forall (entry_ok stack ((o, x, p) :: marks)) ((x, o) :: omap).
Proof.
  intros Ho H. constructor.
  - split; [exists p; left; reflexivity|]. apply (find_origin_in _ _ _ _ Ho).
  - eapply Forall_impl; [|exact H]. intros kv [[q Hq] Ha]. split; [exists q; right; exact Hq|exact Ha].
Qed.

Lemma scan_function_spec : forall im stack names omap marks z,
  scan_function im stack names = inl (omap, marks, z) -> Forall (entry_ok stack marks) omap.
Proof.
  induction names as [|n r IH]; intros omap marks z H; cbn [scan_function] in H.
  - injection H as <- <- _. constructor.
  - destruct (im && String.eqb n "__class__").
    { apply rbind_inl in H as ([[m ms] z'] & Er & H). injection H as <- <- _. exact (IH _ _ _ Er). }
    apply rbind_inl in H as ([o p] & Eo & H). apply rbind_inl in H as ([[m ms] z'] & Er & H).
    injection H as <- <- _. exact (entry_ok_cons _ _ _ _ _ _ Eo (IH _ _ _ Er)).
Qed.

Lemma scan_class_spec : forall stack syms omap marks,
  scan_class stack syms = inl (omap, marks) -> Forall (entry_ok stack marks) omap.
Proof.
  induction syms as [|s r IH]; intros omap marks H; cbn [scan_class] in H.
  - injection H as <- <-. constructor.
  - destruct (sy_nonlocal s || sy_free s); [|exact (IH _ _ H)].
    apply rbind_inl in H as ([o p] & Eo & H). apply rbind_inl in H as ([m ms] & Er & H).
    injection H as <- <-. exact (entry_ok_cons _ _ _ _ _ _ Eo (IH _ _ Er)).
Qed.

Lemma entry_dict_ok marksAll marks stack ch kv :
  Forall2 (matches marksAll) stack ch -> incl marks marksAll -> entry_ok stack marks kv ->
  existsb (fun l => Nat.eqb (lk_id l) (snd kv) && mem (fst kv) (lk_inner_nonlocal l)
                    && match lk_kind l with NFunction => true | _ => false end) ch = true.
Proof.
  intros HM Hinc [[p Hp] [a [Ha [Hid Hk]]]].
  apply existsb_exists.
  induction HM as [|a0 l0 st' ch' Hm HM' IH]; [contradiction|].
  destruct Ha as [->|Ha].
  - exists l0. split; [left; reflexivity|]. destruct Hm as [M1 [M2 M3]].
    rewrite M1, Hid, Nat.eqb_refl, M2, Hk, M3, Hid. rewrite (captured_of_in marksAll (snd kv) (fst kv) p (Hinc _ Hp)). reflexivity.
  - destruct (IH Ha) as [l [Hl Hq]]. exists l. split; [right; exact Hl|exact Hq].
Qed.

Definition all_dict_ok (n : nsp) : Prop := Forall (fun m => dict_ok m = true) (all_nsp n).

Lemma all_nsp_unfold n : all_nsp n = n :: flat_map all_nsp (n_inner n).
Proof. destruct n; reflexivity. Qed.

Lemma all_dict_ok_node n : all_dict_ok n <-> dict_ok n = true /\ Forall all_dict_ok (n_inner n).
Proof. unfold all_dict_ok at 1. rewrite all_nsp_unfold, Forall_cons_iff, Forall_flat_map. reflexivity. Qed.

Lemma fill_unfold marks ch i k name ln syms params omap a b im zs gl inner c :
  fill marks ch (Nsp i k name ln syms params omap a b im zs gl inner c) =
  Nsp i k name ln syms params omap (captured_of marks i)
      (map (fun m => snd (fst m)) (filter (fun m => snd m) (filter (fun m => Nat.eqb (fst (fst m)) i) marks)))
      im zs gl (map (fill marks ((i, k, syms, captured_of marks i, omap) :: ch)) inner) ch.
Proof. reflexivity. Qed.

(* the statement about one table, for every way it can be embedded *)
Definition build_ok (t : symtab) : Prop :=
  forall lt stack pk pm next n marks gl next',
    build lt stack pk pm next t = inl (Some n, marks, gl, next') ->
    forall marksAll ch, incl marks marksAll -> Forall2 (matches marksAll) stack ch ->
      all_dict_ok (fill marksAll ch n).

Lemma children_ok lt stack' kind' methods : forall ch, Forall build_ok ch ->
  forall next inner marks gl next',
    (fix go (ch : list symtab) (next : nat) : res (list nsp * list mark * list ident * nat) :=
       match ch with
       | [] => ret ([], [], [], next)
       | c :: r =>
           let! x := build lt stack' kind' methods next c in
           match x with (on, marks, gl, next1) =>
             let! y := go r next1 in
             match y with (ns, marks2, gl2, next2) =>
               ret ((match on with Some n => [n] | None => [] end) ++ ns, marks ++ marks2, gl ++ gl2, next2)
             end
           end
       end) ch next = inl (inner, marks, gl, next') ->
    forall marksAll ch', incl marks marksAll -> Forall2 (matches marksAll) stack' ch' ->
      Forall (fun n => all_dict_ok (fill marksAll ch' n)) inner.
Proof.
  induction 1 as [|c r Hc _ IH]; intros next inner marks gl next' H marksAll ch' Hinc HM.
  - cbn [ret] in H. injection H as <- _ _ _. constructor.
  - apply rbind_inl in H as ([[[on m1] g1] n1] & Eb & H). apply rbind_inl in H as ([[[ns m2] g2] n2] & Eg & H).
    injection H as <- <- _ _. destruct (incl_app_inv _ _ Hinc) as [Hi1 Hi2]. apply Forall_app. split.
    + destruct on as [n|]; constructor; [|constructor]. exact (Hc _ _ _ _ _ _ _ _ _ Eb marksAll ch' Hi1 HM).
    + exact (IH _ _ _ _ _ Eg marksAll ch' Hi2 HM).
Qed.

Lemma node_ok stack ch0 marksAll m0 i k name ln syms params omap a b im zs gl inner c :
  Forall (entry_ok stack m0) omap -> incl m0 marksAll -> Forall2 (matches marksAll) stack ch0 ->
  Forall (fun n => all_dict_ok (fill marksAll ((i, k, syms, captured_of marksAll i, omap) :: ch0) n)) inner ->
  all_dict_ok (fill marksAll ch0 (Nsp i k name ln syms params omap a b im zs gl inner c)).
Proof.
  intros Hs Hi HM Hin. rewrite fill_unfold. apply all_dict_ok_node. cbn [n_inner]. split; [|apply Forall_map; exact Hin].
  unfold dict_ok. cbn [n_outer_map n_chain]. apply forallb_forall. intros kv Hkv. rewrite Forall_forall in Hs.
  apply (entry_dict_ok marksAll m0 stack ch0 kv HM Hi (Hs kv Hkv)).
Qed.

Theorem build_all_ok : forall t, build_ok t.
Proof.
  induction t using symtab_ind'. unfold build_ok. intros lt stack pk pm next n marks gl next' Hb marksAll ch0 Hinc HM.
  destruct k; cbn [build ret] in Hb; try discriminate.
  - (* KFunction *)
    destruct (String.eqb name "lambda" || (lt && is_comp_table (ST KFunction name ln syms fr nl ps ms ch))); [discriminate|].
    apply rbind_inl in Hb as ([[omap m0] zs] & Es & Hb). apply rbind_inl in Hb as ([[[inner m2] g2] n2] & Ec & Hb).
    injection Hb as <- <- _ _. destruct (incl_app_inv _ _ Hinc) as [Hi0 Hi2].
    apply (node_ok stack ch0 marksAll m0); [exact (scan_function_spec _ _ _ _ _ _ Es)|exact Hi0|exact HM|].
    apply (children_ok lt _ NFunction ms ch H (S next) inner m2 g2 n2 Ec marksAll _ Hi2).
    constructor; [|exact HM]. repeat split.
  - (* KClass *)
    apply rbind_inl in Hb as ([omap m0] & Es & Hb). apply rbind_inl in Hb as ([[[inner m2] g2] n2] & Ec & Hb).
    injection Hb as <- <- _ _. destruct (incl_app_inv _ _ Hinc) as [Hi0 Hi2].
    apply (node_ok stack ch0 marksAll m0); [exact (scan_class_spec _ _ _ _ Es)|exact Hi0|exact HM|].
    apply (children_ok lt _ NClass ms ch H (S next) inner m2 g2 n2 Ec marksAll _ Hi2).
    constructor; [|exact HM]. repeat split.
Qed.

Lemma root_loop_ok lt me : forall ch next inner marks n2,
  (fix go (ch : list symtab) (next : nat) : res (list nsp * list mark * nat) :=
     match ch with
     | [] => ret ([], [], next)
     | c :: r =>
         let! x := build lt [me] NGlobal [] next c in
         match x with (on, marks, _, next1) =>
           let! y := go r next1 in
           match y with (ns, marks2, next2) =>
             ret ((match on with Some n => [n] | None => [] end) ++ ns, marks ++ marks2, next2)
           end
         end
     end) ch next = inl (inner, marks, n2) ->
  forall marksAll ch', incl marks marksAll -> Forall2 (matches marksAll) [me] ch' ->
    Forall (fun n => all_dict_ok (fill marksAll ch' n)) inner.
Proof.
  induction ch as [|c r IH]; intros next inner marks n2 H marksAll ch' Hinc HM.
  - cbn [ret] in H. injection H as <- _ _. constructor.
  - apply rbind_inl in H as ([[[on m1] g1] n1] & Eb & H). apply rbind_inl in H as ([[ns m2] n3] & Eg & H).
    injection H as <- <- _. destruct (incl_app_inv _ _ Hinc) as [Hi1 Hi2]. apply Forall_app. split.
    + destruct on as [n|]; constructor; [|constructor]. exact (build_all_ok c _ _ _ _ _ _ _ _ _ Eb marksAll ch' Hi1 HM).
    + exact (IH _ _ _ _ Eg marksAll ch' Hi2 HM).
Qed.

Theorem generate_nsp_dict_ok : forall lt root tree,
  generate_nsp lt root = inl tree -> forallb dict_ok (all_nsp tree) = true.
Proof.
  intros lt root tree H. destruct root as [k name ln syms fr nl ps ms ch]. cbn [generate_nsp] in H.
  apply rbind_inl in H as ([[inner marks] n2] & Ec & H). injection H as <-. apply forallb_forall. rewrite <- Forall_forall.
  apply all_dict_ok_node. cbn [fill n_inner]. split; [reflexivity|]. apply Forall_map. fold (captured_of marks 0).
  apply (root_loop_ok lt (mkAnc 0 NGlobal syms) ch 1 inner marks n2 Ec marks); [apply incl_refl|].
  constructor; [|constructor]. repeat split.
Qed.
