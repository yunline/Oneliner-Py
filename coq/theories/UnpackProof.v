(* C13, flat patterns (names, at most one of them starred): the accessors emitted by Lower.assign_auto select what the
   reference unpacking of Unpack.v binds.  Nested patterns are in UnpackNested.v, which uses position and its lemmas. *)
From Coq Require Import String List ZArith Bool Arith Lia.
From OL Require Import Sexp PyAst Namespace Lower Unpack.
Import ListNotations.
Open Scope string_scope.
Open Scope list_scope.

Lemma pattern_go_names_fail g tmp len p e : n_kind g = NGlobal ->
  forall l rest i st, Forall (fun t => exists z, t = Name z) l ->
    pattern_go (fun p0 t0 v0 => assign_auto g p0 t0 v0) tmp len p rest (i + length l) st = inr e ->
    pattern_go (fun p0 t0 v0 => assign_auto g p0 t0 v0) tmp len p (l ++ rest) i st = inr e.
Proof.
  intros Hg. induction l as [|t l IH]; intros rest i st Hl Hr.
  - cbn [length app] in *. rewrite Nat.add_0_r in Hr. exact Hr.
  - inversion Hl as [|? ? [z ->] Hl']; subst. cbn [app pattern_go].
    rewrite assign_name by exact Hg. cbn [rbind].
    rewrite (IH rest (S i) st Hl'); [reflexivity|]. cbn [length] in Hr. rewrite <- Nat.add_succ_comm in Hr. exact Hr.
Qed.

(* Where the loop over the targets of one pattern stands: of n targets those from position index on are ts; the sequence
   being unpacked is pre ++ cur, and ts bind cur.  Up to the star pre is exactly what the earlier targets took, so an item is
   reached by its index from the front; after it the targets take one item each, which gives the index i - n from the end. *)
Definition position {V T} (n index : nat) (starred : bool) (pre : list V) (ts : list T) (cur : list V) : Prop :=
  n = index + length ts /\ (if starred then length ts = length cur else length pre = index).

Section Position.
  Context {V T : Type}.
  Implicit Types (pre cur : list V) (t : T) (ts : list T).

  Lemma position_plain n i st pre t ts a cur :
    position n i st pre (t :: ts) (a :: cur) -> position n (S i) st (pre ++ [a]) ts cur.
  Proof.
    intros [Hn H]. cbn [length] in *. split; [lia|]. destruct st; [lia|]. rewrite app_length. cbn [length]. lia.
  Qed.

  Lemma position_star n i pre t ts cur : position n i false pre (t :: ts) cur -> length ts <= length cur ->
    position n (S i) true (pre ++ firstn (length cur - length ts) cur) ts (skipn (length cur - length ts) cur).
  Proof. intros [Hn _] Hle. cbn [length] in Hn. split; [lia|]. rewrite skipn_length. lia. Qed.

  Lemma py_index_sel n i st pre t ts a cur : position n i st pre (t :: ts) (a :: cur) ->
    py_index V (pre ++ a :: cur) (if st then Z.of_nat i - Z.of_nat n else Z.of_nat i) = Some a.
  Proof.
    intros [Hn H]. cbn [length] in Hn, H. unfold py_index. rewrite app_length. cbn [length].
    set (z := if st then _ else _).
    replace (if (z <? 0)%Z then (z + Z.of_nat (length pre + S (length cur)))%Z else z) with (Z.of_nat (length pre))
      by (destruct (Z.ltb_spec0 z 0); subst z; destruct st; lia).
    replace ((0 <=? Z.of_nat (length pre))%Z && (Z.of_nat (length pre) <? Z.of_nat (length pre + S (length cur)))%Z)
      with true by (symmetry; apply andb_true_iff; split; [apply Z.leb_le|apply Z.ltb_lt]; lia).
    rewrite Nat2Z.id, nth_error_app2, Nat.sub_diag by lia. reflexivity.
  Qed.

  Lemma py_slice_star n i pre t ts cur : position n i false pre (t :: ts) cur -> length ts <= length cur ->
    py_slice V (pre ++ cur) (Z.of_nat i)
             (if (Z.of_nat i - Z.of_nat n + 1 =? 0)%Z then None else Some (Z.of_nat i - Z.of_nat n + 1)%Z)
    = firstn (length cur - length ts) cur.
  Proof.
    intros [Hn Hpre] Hk. cbn [length] in Hn. unfold py_slice. rewrite app_length.
    set (Lz := Z.of_nat (length pre + length cur)).
    assert (Ha : clamp Lz (Z.of_nat i) = Z.of_nat (length pre))
      by (unfold clamp; subst Lz; destruct (Z.ltb_spec (Z.of_nat i) 0); lia).
    assert (Hb : match (if (Z.of_nat i - Z.of_nat n + 1 =? 0)%Z then None
                        else Some (Z.of_nat i - Z.of_nat n + 1)%Z) with
                 | Some h => clamp Lz h | None => Lz end = (Lz - Z.of_nat (length ts))%Z).
    { unfold clamp. subst Lz. destruct (Z.eqb_spec (Z.of_nat i - Z.of_nat n + 1) 0); [lia|].
      destruct (Z.ltb_spec (Z.of_nat i - Z.of_nat n + 1) 0); lia. }
    rewrite Ha, Hb, Nat2Z.id, skipn_app, skipn_all, Nat.sub_diag. cbn [app skipn].
    f_equal. subst Lz. lia.
  Qed.
End Position.

Section Proof.
  Variable V : Type.
  Variable g : nsp.
  Hypothesis Hg : n_kind g = NGlobal.

  Notation unpack := (unpack V).
  Notation unpack_nostar := (unpack_nostar V).

  Lemma unpack_nostar_length : forall ts cur bs, unpack_nostar ts cur = Some bs -> length ts = length cur.
  Proof.
    induction ts as [|[y|y] ts IH]; intros [|c cur] bs E; cbn in E; try discriminate; auto.
    destruct (Unpack.unpack_nostar V ts cur) eqn:E'; [|discriminate]. cbn. f_equal. eapply IH; eauto.
  Qed.

  Variable tmpn : ident.
  Variable p : path.
  Variable n : nat.     (* number of targets of the whole pattern *)

  Let go := pattern_go (fun p0 t0 v0 => assign_auto g p0 t0 v0) (Name tmpn) (Z.of_nat n) p.

  Lemma flat_go : forall ts index starred (pre cur : list V) bs,
    position n index starred pre ts cur ->
    (if starred then unpack_nostar ts cur else unpack ts cur) = Some bs ->
    exists stores, go (map (tgt_expr) ts) index starred = inl stores /\
                   eval_stores V tmpn (pre ++ cur) stores = Some bs.
  Proof.
    induction ts as [|t ts IH]; intros index starred pre cur bs Hpos Hu.
    - destruct starred, cur; cbn in Hu; try discriminate; injection Hu as <-; exists []; split; reflexivity.
    - destruct t as [x|x].
      + destruct cur as [|a cur]; [destruct starred; discriminate|].
        assert (Hu' : option_map (cons (x, BVal V a)) (if starred then unpack_nostar ts cur else unpack ts cur) = Some bs)
          by (destruct starred; exact Hu).
        destruct (if starred then unpack_nostar ts cur else unpack ts cur) as [bs'|] eqn:E; [|discriminate].
        injection Hu' as <-.
        destruct (IH (S index) starred (pre ++ [a]) cur bs' (position_plain _ _ _ _ _ _ _ _ Hpos) E) as [stores [Hgo Hev]].
        exists (NamedExpr x (Subscript (Name tmpn)
                  (if starred then nint (Z.of_nat index - Z.of_nat n) else cint (Z.of_nat index))) :: stores).
        split.
        * unfold go in *. cbn [map tgt_expr pattern_go]. rewrite assign_name by exact Hg. cbn [rbind].
          rewrite Hgo. reflexivity.
        * rewrite <- app_assoc in Hev. cbn [app] in Hev. cbn [eval_stores eval_store eval_acc].
          rewrite int_of_sel, String.eqb_refl, (py_index_sel _ _ _ _ _ _ _ _ Hpos). cbn [option_map]. rewrite Hev. reflexivity.
      + (* the starred target takes the middle *)
        destruct starred; [destruct cur; discriminate|]. cbn [Unpack.unpack] in Hu.
        destruct (Nat.leb (length ts) (length cur)) eqn:Hle; [|discriminate]. apply Nat.leb_le in Hle.
        destruct (unpack_nostar ts (skipn (length cur - length ts) cur)) as [bs'|] eqn:E; [|discriminate].
        injection Hu as <-.
        destruct (IH (S index) true _ _ bs' (position_star _ _ _ _ _ _ Hpos Hle) E) as [stores [Hgo Hev]].
        rewrite <- app_assoc, firstn_skipn in Hev.
        eexists. split.
        * unfold go in *. cbn [map tgt_expr pattern_go]. rewrite assign_name by exact Hg. cbn [rbind]. rewrite Hgo. reflexivity.
        * cbn [app eval_stores eval_store eval_acc call].
          rewrite int_of_cint, String.eqb_refl.
          assert (Hs := py_slice_star _ _ _ _ _ _ Hpos Hle).
          destruct (Z.of_nat index - Z.of_nat n + 1 =? 0)%Z; cbn [option_map]; rewrite ?int_of_nint; rewrite Hs, Hev; reflexivity.
  Qed.
End Proof.

Lemma unpack_flat_form_correct (tuple_form : bool) :
  forall (V : Type) (g : nsp) (p : path) (ts : list (tgt)) (value : expr) (v : list V) bs,
  n_kind g = NGlobal ->
  unpack V ts v = Some bs ->
  exists stores,
    assign_auto g p ((if tuple_form then ETuple else EList) (map tgt_expr ts)) value
      = inl (NamedExpr (ol "assign" (path_str p)) (call (Name "tuple") [value]) :: stores)
    /\ eval_stores V (ol "assign" (path_str p)) v stores = Some bs.
Proof.
  intros V g p ts value v bs Hg Hu.
  destruct (flat_go V g Hg (ol "assign" (path_str p)) p (length ts) ts 0 false [] v bs) as [stores [Hgo Hev]];
    [split; reflexivity|exact Hu|].
  exists stores. split; [|exact Hev].
  destruct tuple_form; cbn [assign_auto]; rewrite map_length, Hgo; reflexivity.
Qed.

(* stated for the case that everything before the second star is a plain name: the loop then reaches the second star
   with its flag set, whatever follows (pattern_go_names_fail) *)
Theorem two_stars_rejected : forall (g : nsp) p pre mid post x y value,
  n_kind g = NGlobal ->
  Forall (fun t => exists z, t = Name z) pre -> Forall (fun t => exists z, t = Name z) mid ->
  assign_auto g p (ETuple (pre ++ Starred (Name x) :: mid ++ Starred (Name y) :: post)) value = inr ESyntax.
Proof.
  intros g p pre mid post x y value Hg Hpre Hmid.
  cbn [assign_auto].
  rewrite (pattern_go_names_fail g _ _ p ESyntax Hg pre _ 0 false Hpre); [reflexivity|].
  cbn [pattern_go]. rewrite assign_name by exact Hg. cbn [rbind].
  rewrite (pattern_go_names_fail g _ _ p ESyntax Hg mid _ _ true Hmid); reflexivity.
Qed.

Example unpack_example :
  unpack nat [TPlain "a"; TStar "b"; TPlain "c"; TPlain "d"] [1; 2; 3; 4; 5]
  = Some [("a", BVal nat 1); ("b", BList nat [2; 3]); ("c", BVal nat 4); ("d", BVal nat 5)].
Proof. reflexivity. Qed.
