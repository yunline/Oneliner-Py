(* C05: fuel monotonicity of the scaffolding evaluator and compositional evaluation judgements. *)
From Coq Require Import String Ascii List ZArith Bool Arith Lia.
From OL Require Import Sexp PyAst Namespace Lower KSem.
Import ListNotations.
Open Scope string_scope.
Open Scope list_scope.

Definition below {A} (a b : option A) : Prop := forall r, a = Some r -> b = Some r.

Definition evaluator : Type := mode -> st -> option (val * st).

(* An expression [T] in the evaluator [E] it calls is monotone if [T R] is below [T R'] whenever [R] is below [R'].
   Calls of [E], [match .. with Some x => .. | None => None end] and case distinctions on other data keep it so. *)
Section Monotone.
  Variables R R' : evaluator.
  Hypothesis HR : forall m s, below (R m s) (R' m s).

  Definition mono {A} (T : evaluator -> option A) : Prop := below (T R) (T R').

  Lemma mono_const {A} (a : option A) : mono (fun _ => a).
  Proof. intros r H. exact H. Qed.

  Lemma mono_call m s : mono (fun E => E m s).
  Proof. apply HR. Qed.

  Lemma mono_bind {A B} (T : evaluator -> option A) (K : evaluator -> A -> option B) :
    mono T -> (forall x, mono (fun E => K E x)) ->
    mono (fun E => match T E with Some x => K E x | None => None end).
  Proof. unfold mono. intros HT HK r. destruct (T R) as [x|]; [|discriminate]. rewrite (HT x eq_refl). apply HK. Qed.
End Monotone.

Section Mono.
  Variable orc : nat -> bool.

  (* One step of [run]: the body of its fixpoint with [E] for the recursive calls, read off the definition by
     unfolding [run] at the successor of a fuel [g] and abstracting [run orc g]; nothing else in it mentions [g]. *)
  Section Step.
    Variable g : nat.
    Definition step (E : evaluator) (m : mode) (s : st) : option (val * st) :=
      ltac:(let body := eval cbn [run] in (run orc (S g) m s) in
            match eval pattern (run orc g) in body with ?F _ => let t := eval cbv beta in (F E) in exact t end).
  End Step.

  (* [run] is the fixpoint over [step] by conversion, and [run_S] is then one unfolding of that fixpoint.  Proved by
     unfolding [run] itself, [run_S] would have the whole fixpoint compared with itself once for every recursive call
     in its body. *)
  Lemma run_fix : run orc = fix r fuel m s := match fuel with O => None | S f => step (r f) m s end.
  Proof. reflexivity. Qed.

  Lemma run_S f m s : run orc (S f) m s = step (run orc f) m s.
  Proof. rewrite run_fix. reflexivity. Qed.

  (* By mode, and for an expression by its head constructor, [step E m s] is a tree of case distinctions with calls of
     [E] and [match .. with Some x => .. | None => None end] inside.  Which of the four shapes it is shows on the
     normal form of the goal; the goal is matched on that normal form but left unreduced, since every reduction step
     would copy what is left of the tree into the proof. *)
  Lemma step_mono R R' : (forall m s, below (R m s) (R' m s)) -> forall m s, mono R R' (fun E => step E m s).
  Proof.
    intros HR m s. unfold step. destruct m as [e| | | | | |]; [destruct e|..]; cbv beta iota.
    all: repeat match goal with |- ?G =>
      lazymatch eval cbv beta iota in G with
      | mono _ _ (fun _ => ?a) => exact (mono_const R R' a)
      | mono _ _ (fun E => E ?m ?s) => exact (mono_call R R' HR m s)
      | mono _ _ (fun _ => match ?x with _ => _ end) => destruct x
      | _ => refine (mono_bind R R' _ _ _ _); [|intros [? ?]]
      end end.
  Qed.

  Lemma run_mono : forall f m s r, run orc f m s = Some r -> forall f', f <= f' -> run orc f' m s = Some r.
  Proof.
    assert (next : forall f m s, below (run orc f m s) (run orc (S f) m s)).
    { induction f as [|f IH]; intros m s; [intros r H; discriminate|]. rewrite !run_S. exact (step_mono _ _ IH m s). }
    intros f m s r H f' Hle. induction Hle as [|f' _ IH]; [exact H|]. apply next. exact IH.
  Qed.
End Mono.

Section Ev.
  Variable orc : nat -> bool.

  Definition Ev (m : mode) (s : st) (r : val * st) : Prop := exists f, run orc f m s = Some r.

  Lemma Ev2 m1 s1 r1 m2 s2 r2 : Ev m1 s1 r1 -> Ev m2 s2 r2 ->
    exists f, run orc f m1 s1 = Some r1 /\ run orc f m2 s2 = Some r2.
  Proof. intros [f1 H1] [f2 H2]. exists (f1 + f2). split; eapply run_mono; eauto; lia. Qed.

  Lemma Ev3 m1 s1 r1 m2 s2 r2 m3 s3 r3 : Ev m1 s1 r1 -> Ev m2 s2 r2 -> Ev m3 s3 r3 ->
    exists f, run orc f m1 s1 = Some r1 /\ run orc f m2 s2 = Some r2 /\ run orc f m3 s3 = Some r3.
  Proof. intros [f1 H1] [f2 H2] [f3 H3]. exists (f1 + f2 + f3). repeat split; eapply run_mono; eauto; lia. Qed.

  Lemma Ev_true s : Ev (MExpr ctrue) s (VBool true, s). Proof. exists 1. reflexivity. Qed.
  Lemma Ev_false s : Ev (MExpr cfalse) s (VBool false, s). Proof. exists 1. reflexivity. Qed.
  Lemma Ev_none s : Ev (MExpr cnone) s (VNone, s). Proof. exists 1. reflexivity. Qed.
  Lemma Ev_ellipsis s : Ev (MExpr ellipsis) s (VEll, s). Proof. exists 1. reflexivity. Qed.
  Lemma Ev_name s x v : lookup (s_env s) x = Some v -> Ev (MExpr (Name x)) s (v, s).
  Proof. intros H. exists 1. rewrite run_S. cbv [step]. rewrite H. reflexivity. Qed.
  Lemma Ev_mark s k : Ev (MExpr (probe "m" k)) s (VNone, emit s (EMark k)). Proof. exists 1. reflexivity. Qed.
  Lemma Ev_cond s k : Ev (MExpr (probe "c" k)) s (VBool (orc (s_pos s)), emit (tick s) (ECond k (orc (s_pos s)))).
  Proof. exists 1. reflexivity. Qed.
  Lemma Ev_val s k : Ev (MExpr (probe "v" k)) s (VProbe k, emit s (EVal k)). Proof. exists 1. reflexivity. Qed.
  Lemma Ev_iterable s k : Ev (MExpr (probe "it" k)) s (VIterable k, emit s (EIterable k)). Proof. exists 1. reflexivity. Qed.
  Lemma Ev_break_attr s itn v : lookup (s_env s) (brk_key itn) = Some v -> Ev (MExpr (Attribute (Name itn) "_break")) s (v, s).
  Proof. intros H. exists 1. rewrite run_S. cbv [step]. rewrite H. reflexivity. Qed.

  Lemma Ev_lambda s body : Ev (MExpr (Lambda [] [] None [] [] None [] body)) s (VFun body, s). Proof. exists 1. reflexivity. Qed.

  Definition wrapper_call (e : expr) : bool :=
    match e with Call (Name g) [_] [] => String.eqb g "__ol_iter_wrapper" | _ => false end.

  (* [x := e] evaluates [e] and binds [x] to the value; only a call of the iterator wrapper is read differently *)
  Lemma Ev_named s x e v s1 : wrapper_call e = false -> Ev (MExpr e) s (v, s1) -> Ev (MExpr (NamedExpr x e)) s (v, setv s1 x v).
  Proof.
    intros Hw [f H]. exists (S f). rewrite run_S. cbv [step].
    (* down to the shape [Call (Name g) [_] []]; every other one takes the default branch *)
    destruct e; try (rewrite H; reflexivity).
    destruct e; try (rewrite H; reflexivity). destruct args as [|a [|]]; try (rewrite H; reflexivity).
    destruct keywords; try (rewrite H; reflexivity). cbn [wrapper_call] in Hw. rewrite Hw, H. reflexivity.
  Qed.

  Lemma Ev_named_wrapper s itn it k s1 : Ev (MExpr it) s (VIterable k, s1) ->
    Ev (MExpr (NamedExpr itn (call (Name "__ol_iter_wrapper") [it]))) s
       (VWrap k, setv (setv (emit s1 (EIter k)) (brk_key itn) (VBool false)) itn (VWrap k)).
  Proof. intros [f H]. exists (S f). rewrite run_S. cbv [step call]. cbn [String.eqb Ascii.eqb Bool.eqb]. rewrite H. reflexivity. Qed.

  Lemma Ev_setattr_true s itn : Ev (MExpr (call (Name "setattr") [Name itn; cstr "_break"; ctrue])) s (VNone, setv s (brk_key itn) (VBool true)).
  Proof. exists 2. reflexivity. Qed.

  Lemma Ev_not s e v s1 : Ev (MExpr e) s (v, s1) -> Ev (MExpr (UnaryOp Not e)) s (VBool (negb (truthy v)), s1).
  Proof. intros [f H]. exists (S f). rewrite run_S. cbv [step]. rewrite H. reflexivity. Qed.

  Lemma Ev_if s t b o v s1 r : Ev (MExpr t) s (v, s1) -> Ev (MExpr (if truthy v then b else o)) s1 r -> Ev (MExpr (IfExp t b o)) s r.
  Proof.
    intros H1 H2. destruct (Ev2 _ _ _ _ _ _ H1 H2) as [f [A B]]. exists (S f). rewrite run_S. cbv [step]. rewrite A.
    destruct (truthy v); exact B.
  Qed.

  Lemma run_seq_cons f e r n last al s :
    run orc (S f) (MSeq (e :: r) n last al) s =
    match run orc f (MExpr e) s with Some (v, s1) => run orc f (MSeq r (S n) v al) s1 | None => None end.
  Proof. apply run_S. Qed.
  Lemma run_elist f es s : run orc (S f) (MExpr (EList es)) s = run orc f (MSeq es 0 VNone true) s.
  Proof. apply run_S. Qed.
  Lemma run_while f test body s :
    run orc (S f) (MWhile test body) s =
    match run orc f (MExpr test) s with
    | Some (v, s1) =>
        if truthy v then match run orc f (MExpr body) s1 with Some (_, s2) => run orc f (MWhile test body) s2 | None => None end
        else Some (VList 0, s1)
    | None => None end.
  Proof. apply run_S. Qed.
  Lemma run_forplain f k tgt body s :
    run orc (S f) (MForPlain k tgt body) s =
    let b := orc (s_pos s) in
    let s1 := emit (tick s) (ENext k b) in
    if b then match run orc f (MExpr body) (setv s1 tgt (VInt k)) with Some (_, s2) => run orc f (MForPlain k tgt body) s2 | None => None end
    else Some (VList 0, s1).
  Proof. apply run_S. Qed.
  Lemma run_forwrap f itn k tgt body s :
    run orc (S f) (MForWrap itn k tgt body) s =
    match lookup (s_env s) (brk_key itn) with
    | Some v =>
        if truthy v then Some (VList 0, s)
        else
          let b := orc (s_pos s) in
          let s1 := emit (tick s) (ENext k b) in
          if b then match run orc f (MExpr body) (setv s1 tgt (VInt k)) with Some (_, s2) => run orc f (MForWrap itn k tgt body) s2 | None => None end
          else Some (VList 0, s1)
    | None => None end.
  Proof. apply run_S. Qed.

  (* a two-operand `and` / `or`: the first operand decides, or the second is the result *)
  Definition decides (op : boolop) (v : val) : bool := match op with And => negb (truthy v) | Or => truthy v end.

  Lemma Ev_bool_stop op s a b v s1 : Ev (MExpr a) s (v, s1) -> decides op v = true -> Ev (MExpr (BoolOp op [a; b])) s (v, s1).
  Proof.
    intros [f H] Hd. exists (S (S f)). destruct op; cbn [run]; rewrite H; cbn [decides] in Hd; destruct (truthy v); try discriminate Hd; reflexivity.
  Qed.

  Lemma Ev_bool_go op s a b v s1 r : Ev (MExpr a) s (v, s1) -> decides op v = false -> Ev (MExpr b) s1 r ->
    Ev (MExpr (BoolOp op [a; b])) s r.
  Proof.
    intros H1 Hd H2. destruct (Ev2 _ _ _ _ _ _ H1 H2) as [f [A B]].
    (* four steps above the operands: BoolOp op [a; b], then MAnd / MOr at [a; b], at [b] and at [] *)
    exists (S (S (S (S f)))). destruct r as [w s2].
    destruct op; do 2 (rewrite run_S; cbv [step]); rewrite (run_mono orc _ _ _ _ A (S (S f))) by lia; cbn [decides] in Hd;
      destruct (truthy v); try discriminate Hd; rewrite run_S; cbv [step]; rewrite (run_mono orc _ _ _ _ B (S f)) by lia;
      rewrite run_S; destruct (truthy w); reflexivity.
  Qed.

  (* a list display evaluates its elements from left to right *)
  Inductive EvSeq : list expr -> st -> st -> Prop :=
  | ES_nil s : EvSeq [] s s
  | ES_cons e r s v s1 s' : Ev (MExpr e) s (v, s1) -> EvSeq r s1 s' -> EvSeq (e :: r) s s'.

  Lemma EvSeq_app a b s s1 s' : EvSeq a s s1 -> EvSeq b s1 s' -> EvSeq (a ++ b) s s'.
  Proof. induction 1; intros Hb; [exact Hb|]. cbn [app]. econstructor; eauto. Qed.

  Lemma EvSeq_one e s v s1 : Ev (MExpr e) s (v, s1) -> EvSeq [e] s s1.
  Proof. intros H. econstructor; [exact H|constructor]. Qed.

  Lemma EvSeq_run es s s' : EvSeq es s s' -> forall n last, Ev (MSeq es n last true) s (VList (n + length es), s').
  Proof.
    induction 1 as [s|e r s v s1 s' He Hr IH]; intros n last.
    - exists 1. rewrite run_S. cbv [step]. cbn [length]. rewrite Nat.add_0_r. reflexivity.
    - destruct (Ev2 _ _ _ _ _ _ He (IH (S n) v)) as [f [A B]]. exists (S f).
      rewrite run_seq_cons, A, B. cbn [length]. replace (S n + length r) with (n + S (length r)) by lia. reflexivity.
  Qed.

  Lemma Ev_elist es s s' : EvSeq es s s' -> Ev (MExpr (EList es)) s (VList (length es), s').
  Proof. intros H. destruct (EvSeq_run _ _ _ H 0 VNone) as [f Hf]. exists (S f). rewrite run_elist. exact Hf. Qed.

  Lemma Ev_last es e s s1 v s' : EvSeq es s s1 -> Ev (MExpr e) s1 (v, s') ->
    Ev (MExpr (Subscript (EList (es ++ [e])) minus1)) s (v, s').
  Proof.
    intros Hes He.
    assert (G : forall n last, Ev (MSeq (es ++ [e]) n last false) s (v, s')).
    { induction Hes as [s|e0 r s v0 s1 s2 He0 Hr IH]; intros n last.
      - destruct He as [f Hf]. exists (S (S f)). cbn [app]. rewrite run_seq_cons.
        rewrite (run_mono orc _ _ _ _ Hf (S f)) by lia. reflexivity.
      - destruct (Ev2 _ _ _ _ _ _ He0 (IH He (S n) v0)) as [f [A B]]. exists (S f). cbn [app].
        rewrite run_seq_cons, A. exact B. }
    destruct (G 0 VNone) as [f Hf]. exists (S f). unfold minus1, cint. rewrite run_S. exact Hf.
  Qed.

  (* with cfg_chain = false, [wrap es] is an ellipsis for no element, the element itself for one, a list display otherwise *)
  Lemma Ev_wrap cfg es s s' : cfg_chain cfg = false -> EvSeq es s s' -> exists v, Ev (MExpr (wrap cfg es)) s (v, s').
  Proof.
    intros Hc H. destruct es as [|e [|e2 r]].
    - inversion H; subst. exists VEll. apply Ev_ellipsis.
    - inversion H as [|? ? ? v s1 ? He Hr]; subst. inversion Hr; subst. exists v. exact He.
    - unfold wrap. rewrite Hc. eexists. apply Ev_elist. exact H.
  Qed.
End Ev.
