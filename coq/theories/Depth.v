(* C17: nesting depth of the generated expression.  With expr_wrapper = list a block of statements becomes ONE list
   display (depth independent of the number of statements); with chain_call every statement adds one level of call
   nesting.  The expression unparser and CPython's compiler recurse on depth, not on width. *)
From Coq Require Import String List ZArith Bool Arith Lia.
From OL Require Import Sexp PyAst Namespace Lower KSem KSim.
Import ListNotations.
Open Scope string_scope.
Open Scope list_scope.

Definition list_max (l : list nat) : nat := fold_right Nat.max 0 l.

(* depth of the call/display spine (enough to state the two wrappers' behaviour) *)
Fixpoint depth (e : expr) : nat :=
  match e with
  | EList es | ETuple es | ESet es => S (list_max (map depth es))
  | Call f args _ => S (Nat.max (depth f) (list_max (map depth args)))
  | Subscript v s => S (Nat.max (depth v) (depth s))
  | IfExp t b o => S (Nat.max (depth t) (Nat.max (depth b) (depth o)))
  | NamedExpr _ v => S (depth v)
  | Lambda _ _ _ _ _ _ _ b => S (depth b)
  | UnaryOp _ v => S (depth v)
  | _ => 1
  end.

Lemma list_max_ge l x : List.In x l -> x <= list_max l.
Proof. induction l as [|y r IH]; intros []; cbn; [subst; apply Nat.le_max_l|]. etransitivity; [apply IH; assumption|apply Nat.le_max_r]. Qed.

Definition cfg_list : config := mkCfg false false false.
Definition cfg_chain_call : config := mkCfg true false false.

Theorem wrap_list_depth : forall es d, Forall (fun e => depth e <= d) es -> depth (wrap cfg_list es) <= S d.
Proof.
  intros es d H. destruct es as [|e [|e2 r]]; cbn [wrap cfg_list cfg_chain].
  - cbn. lia.
  - inversion H; subst. lia.
  - cbn [depth]. apply le_n_S. apply list_max_le. rewrite Forall_map. exact H.
Qed.

Lemma chain_fold_depth : forall rest acc, length rest + depth acc <= depth (fold_left (fun c n => call c [n]) rest acc).
Proof.
  induction rest as [|n r IH]; intros acc; cbn [fold_left length]; [lia|].
  specialize (IH (call acc [n])). unfold call in IH at 1. cbn [depth] in IH. lia.
Qed.

Theorem chain_call_depth : forall es, length es <= depth (chain_call es).
Proof.
  intros [|e0 rest]; [cbn; lia|]. unfold chain_call.
  pose proof (chain_fold_depth rest (call chain_runner [e0])) as H.
  assert (D : 1 <= depth (call chain_runner [e0])) by (unfold call; cbn [depth]; lia).
  cbn [length]. lia.
Qed.

Theorem wrap_chain_depth : forall es, 2 <= length es -> length es <= depth (wrap cfg_chain_call es).
Proof.
  intros es H. destruct es as [|e [|e2 r]]; cbn [length] in H; try lia.
  cbn [wrap cfg_chain_call cfg_chain]. apply chain_call_depth.
Qed.

Lemma lower_block_exprs cfg c es : Forall (fun e => tr (c_nsp c) e = inl e) es -> forall p br i,
  lower_block cfg (fun c0 p0 s0 => lower_stmt cfg c0 p0 s0) c p br i (map SExpr es) = inl es.
Proof.
  induction 1 as [|e es He _ IH]; intros p br i; [reflexivity|].
  apply (block_cons _ _ _ _ _ _ _ _ [e] es); [|reflexivity|apply guard_of_SExpr|apply IH].
  cbn [lower_stmt]. rewrite He. reflexivity.
Qed.

Lemma existsb_false {A} (f : A -> bool) l : Forall (fun x => f x = false) l -> existsb f l = false.
Proof. induction 1 as [|x l Hx _ IH]; [reflexivity|]. cbn [existsb]. rewrite Hx. exact IH. Qed.

Lemma Forall_repeat {A} (P : A -> Prop) x n : P x -> Forall P (repeat x n).
Proof. intros H. apply Forall_forall. intros y Hy. apply repeat_spec in Hy. subst y. exact H. Qed.

Definition marks (n : nat) : list stmt := repeat (SExpr (probe "m" 0)) n.

Lemma marks_map n : marks n = map SExpr (repeat (probe "m" 0) n).
Proof. unfold marks. induction n as [|n IH]; [reflexivity|]. cbn [repeat map]. rewrite IH. reflexivity. Qed.

Lemma lower_marks cfg c : transparent (c_nsp c) -> forall n p br i,
  lower_block cfg (fun c0 p0 s0 => lower_stmt cfg c0 p0 s0) c p br i (marks n) = inl (repeat (probe "m" 0) n).
Proof. intros Ht n p br i. rewrite marks_map. apply lower_block_exprs, Forall_repeat, tr_probe, Ht. Qed.

Lemma prelude_marks n : prelude (marks n) = [].
Proof. unfold prelude. rewrite !existsb_false by (apply Forall_repeat; reflexivity). reflexivity. Qed.

Lemma lower_module_marks cfg n :
  lower_module cfg top_symtab (marks n) = inl (wrap cfg (repeat (probe "m" 0) n)).
Proof.
  destruct (module_nsp (cfg_host_lt_312 cfg)) as (g & Hg & Hk & _).
  rewrite (lower_module_eq cfg _ g _ (repeat (probe "m" 0) n) Hg), prelude_marks; [reflexivity|].
  apply lower_marks, global_transparent, Hk.
Qed.

Theorem statements_depth_list : forall n, exists e, lower_module cfg_list top_symtab (marks n) = inl e /\ depth e <= 3.
Proof.
  intros n. eexists. split; [apply lower_module_marks|].
  apply (wrap_list_depth _ 2), Forall_repeat. cbn. lia.
Qed.

Theorem statements_depth_chain : forall n, 2 <= n -> exists e, lower_module cfg_chain_call top_symtab (marks n) = inl e /\ n <= depth e.
Proof.
  intros n Hn. eexists. split; [apply lower_module_marks|].
  pose proof (wrap_chain_depth (repeat (probe "m" 0) n)) as H. rewrite repeat_length in H. apply H. exact Hn.
Qed.

(* full nesting height of an expression tree: every child of every node counts *)
Fixpoint height (e : expr) : nat :=
  let hs := fix hs (l : list expr) : nat := match l with [] => 0 | x :: r => Nat.max (height x) (hs r) end in
  let ho := fun (o : option expr) => match o with Some x => height x | None => 0 end in
  let hos := fix hos (l : list (option expr)) : nat :=
    match l with [] => 0 | o :: r => Nat.max (match o with Some x => height x | None => 0 end) (hos r) end in
  let hk := fix hk (l : list (option ident * expr)) : nat :=
    match l with [] => 0 | (_, x) :: r => Nat.max (height x) (hk r) end in
  let hg := fix hg (l : list (expr * expr * list expr * bool)) : nat :=
    match l with
    | [] => 0
    | (t, i, ifs, _) :: r => Nat.max (Nat.max (height t) (Nat.max (height i) (hs ifs))) (hg r)
    end in
  S match e with
    | Name _ | Constant _ | Other _ => 0
    | JoinedStr vs => hs vs
    | FormattedValue v _ spec => Nat.max (height v) (ho spec)
    | Starred v | UnaryOp _ v | Attribute v _ | NamedExpr _ v | YieldFrom v | Await v => height v
    | BinOp l _ r => Nat.max (height l) (height r)
    | BoolOp _ vs | EList vs | ETuple vs | ESet vs => hs vs
    | EDict ks vs => Nat.max (hos ks) (hs vs)
    | Compare l _ cs => Nat.max (height l) (hs cs)
    | Subscript v s => Nat.max (height v) (height s)
    | Slice a b c => Nat.max (ho a) (Nat.max (ho b) (ho c))
    | Call f args kws => Nat.max (height f) (Nat.max (hs args) (hk kws))
    | Lambda _ _ _ _ kwd _ ds b => Nat.max (hos kwd) (Nat.max (hs ds) (height b))
    | ListComp x gens | SetComp x gens | GeneratorExp x gens => Nat.max (height x) (hg gens)
    | DictComp k v gens => Nat.max (height k) (Nat.max (height v) (hg gens))
    | IfExp t b o => Nat.max (height t) (Nat.max (height b) (height o))
    | Yield v => ho v
    end.

Definition heights (l : list expr) : nat := fold_right (fun x a => Nat.max (height x) a) 0 l.

Lemma heights_repeat x n : heights (repeat x n) <= height x.
Proof. unfold heights. induction n as [|n IH]; cbn [repeat fold_right]; lia. Qed.

Lemma heights_app a b : heights (a ++ b) = Nat.max (heights a) (heights b).
Proof. unfold heights. induction a as [|x a IH]; cbn [app fold_right]; [reflexivity|]. rewrite IH. lia. Qed.

Lemma heights_In x l : List.In x l -> height x <= heights l.
Proof.
  induction l as [|y l IH]; [contradiction|]. intros [->|H]; cbn [heights fold_right]; [lia|].
  specialize (IH H). unfold heights in IH. lia.
Qed.

Lemma height_EList es : height (EList es) = S (heights es).
Proof. reflexivity. Qed.
Lemma height_BoolOp op vs : height (BoolOp op vs) = S (heights vs).
Proof. reflexivity. Qed.
Lemma height_IfExp t b o : height (IfExp t b o) = S (Nat.max (height t) (Nat.max (height b) (height o))).
Proof. reflexivity. Qed.

Lemma wrap_list_height es : height (wrap cfg_list es) <= S (heights es).
Proof.
  destruct es as [|e [|e2 r]]; cbn [wrap cfg_list cfg_chain].
  - cbn. lia.
  - cbn. lia.
  - rewrite height_EList. lia.
Qed.

Theorem statements_height_list : forall n, exists e, lower_module cfg_list top_symtab (marks n) = inl e /\ height e <= 3.
Proof.
  intros n. eexists. split; [apply lower_module_marks|].
  etransitivity; [apply wrap_list_height|]. apply le_n_S. apply heights_repeat.
Qed.

(* the test of a flag and the list display under it: two levels above the guarded expressions *)
Lemma guarded_height flag rs : height (guarded cfg_list flag rs) <= Nat.max 3 (heights rs + 2).
Proof.
  pose proof (wrap_list_height rs) as W. unfold guarded. rewrite height_IfExp.
  change (height (UnaryOp Not (Name flag))) with 2. change (height ellipsis) with 1. lia.
Qed.

Lemma ex_live_before_marks f s n b : (forall e, f (SExpr e) = false) -> f s = b -> ex_live f (s :: marks n) = b.
Proof.
  intros Hf <-. rewrite ex_live_cons, (ex_live_false f (marks n)) by (apply Forall_repeat, Hf).
  destruct (is_interrupt s); apply orb_false_r.
Qed.

Lemma uses_flag_bump bumps s r : is_interrupt s = false -> bumps s = true -> r <> [] -> uses_flag bumps (s :: r) = true.
Proof.
  intros Hi Hb Hr. destruct r as [|s2 r]; [contradiction|]. unfold uses_flag. rewrite has_boundary_cons2, Hi, Hb. reflexivity.
Qed.

Lemma marks_under_one_test c p br i s es bumps flag n :
  transparent (c_nsp c) -> lower_stmt cfg_list c (i :: br :: p) s = inl es -> is_interrupt s = false ->
  guard_of c = (bumps, Some flag) -> bumps s = true ->
  exists x, lower_block cfg_list (fun c0 p0 s0 => lower_stmt cfg_list c0 p0 s0) c p br i (s :: marks (S n)) = inl (es ++ [x])
            /\ height x <= 4.
Proof.
  intros Ht Hs Hi Hg Hb. eexists. split.
  - eapply block_after_guard; try eassumption; [discriminate|]. apply lower_marks, Ht.
  - pose proof (guarded_height flag (repeat (probe "m" 0) (S n))) as H. pose proof (heights_repeat (probe "m" 0) (S n)) as M.
    change (height (probe "m" 0)) with 2 in M. lia.
Qed.

(* The height of a tree whose constructors are visible down to subtrees of known height:
   a bound on a maximum is a bound on each of its arguments. *)
Ltac bound_height := cbn -[Nat.max]; repeat first [apply Nat.max_lub | apply le_n_S]; lia.

Definition guard_stmt : stmt := SIf (probe "c" 1) [SBreak] [].
Definition guard_prog (n : nat) : list stmt := [SWhile (probe "c" 0) (guard_stmt :: marks n) []].

(* list wrapper: an early exit followed by ANY number of statements in the same block is an expression of height at
   most 7: the rest of the block sits under ONE test of the exit's flag, not one nesting level per statement *)
Theorem guarded_statements_height_list : forall n,
  exists e, lower_module cfg_list top_symtab (guard_prog n) = inl e /\ height e <= 7.
Proof.
  intros [|n]; [eexists; split; [reflexivity|vm_compute; lia]|].
  destruct (module_nsp false) as (g & Hg & Hk & _). pose proof (global_transparent g Hk) as Ht.
  (* the body, inside the loop: it uses both flags of the loop *)
  edestruct (marks_under_one_test (mkCtx g [mkLoop LWhile [0; 0] true true] false) [0; 0] 0 0 guard_stmt) with (n := n)
    as (x & Hx & H4); [exact Ht| |reflexivity..|].
  { cbn [guard_stmt lower_stmt lower_block c_nsp c_loops rbind ret is_interrupt]. rewrite tr_probe by exact Ht. reflexivity. }
  eexists. split.
  - apply (lower_module_eq cfg_list _ g); [exact Hg|].
    cbn [guard_prog lower_block]. cbn [lower_stmt c_nsp c_loops c_ret_used]. unfold brk_block.
    rewrite (ex_live_before_marks brk_loop _ _ true), uses_flag_bump by (reflexivity || discriminate).
    rewrite Hx, tr_probe by exact Ht. reflexivity.
  - (* the prelude is the import for the while loop; above x (H4: at most 4) stand the list display of the body, the
       comprehension and the list display of the module: 7 *)
    unfold prelude, guard_prog. cbn [existsb visits]. rewrite !(ex_live_before_marks _ _ _ false) by reflexivity.
    bound_height.
Qed.

Definition cont_stmt : stmt := SIf (probe "c" 1) [SContinue] [].
Definition cont_prog (n : nat) : list stmt := [SFor (Name "x") (probe "it" 0) (cont_stmt :: marks n) []].

Theorem continued_statements_height_list : forall n,
  exists e, lower_module cfg_list top_symtab (cont_prog n) = inl e /\ height e <= 6.
Proof.
  intros [|n]; [eexists; split; [reflexivity|vm_compute; lia]|].
  destruct (module_nsp false) as (g & Hg & Hk & _). pose proof (global_transparent g Hk) as Ht.
  (* the body, inside the loop: it interrupts an iteration and never leaves the loop *)
  edestruct (marks_under_one_test (mkCtx g [mkLoop LFor [0; 0] true false] false) [0; 0] 0 0 cont_stmt) with (n := n)
    as (x & Hx & H4); [exact Ht| |reflexivity..|].
  { cbn [cont_stmt lower_stmt lower_block c_nsp c_loops rbind ret is_interrupt]. rewrite tr_probe by exact Ht. reflexivity. }
  eexists. split.
  - apply (lower_module_eq cfg_list _ g); [exact Hg|].
    cbn [cont_prog lower_block]. cbn [lower_stmt c_nsp c_loops c_ret_used]. unfold brk_block, mi_block.
    rewrite (ex_live_before_marks brk_loop _ _ false), (ex_live_before_marks mi_loop _ _ true), uses_flag_bump
      by (reflexivity || discriminate).
    rewrite Hx, tr_probe, assign_name by (exact Ht || exact Hk). reflexivity.
  - (* the prelude is empty and the comprehension is the whole module: above x stand the list display of the body and
       the comprehension: 6 *)
    unfold prelude, cont_prog, brk_block. cbn [existsb visits]. rewrite !(ex_live_before_marks _ _ _ false) by reflexivity.
    bound_height.
Qed.

Definition ret_stmt : stmt := SIf (probe "c" 1) [SReturn None] [].
Definition ret_prog (n : nat) : list stmt := [SFunctionDef "f" 1 no_args (ret_stmt :: marks n) []].

Theorem returned_statements_height_list : forall n,
  exists e, lower_module cfg_list fun_symtab (ret_prog n) = inl e /\ height e <= 8.
Proof.
  intros [|n]; [eexists; split; [reflexivity|vm_compute; lia]|].
  destruct fun_nsp as (g & fn & Hg & Hk & Hfind & Hfk & Hid & Ht & Hz & Hin & Him & Hsp).
  (* the body, inside the function: it uses the function's return flag *)
  edestruct (marks_under_one_test (mkCtx fn [] true) [0; 0] 0 0 ret_stmt) with (n := n) (bumps := has_ret) as (x & Hx & H4);
    [exact Ht| |reflexivity| |reflexivity|].
  { cbn [ret_stmt lower_stmt lower_block c_nsp c_loops c_ret_used rbind ret is_interrupt].
    rewrite Hfk, tr_probe by exact Ht. reflexivity. }
  { unfold guard_of. cbn [c_loops c_nsp]. rewrite Hfk. reflexivity. }
  eexists. split.
  - apply (lower_module_eq cfg_list _ g); [exact Hg|].
    cbn [ret_prog lower_block]. cbn [lower_stmt c_nsp]. rewrite Hfind, Hfk.
    cbn [no_args a_defaults a_kw_defaults a_posonly a_args a_vararg a_kwonly a_kwarg rmap rbind ret app].
    rewrite Hsp, uses_flag_bump, Hx by (reflexivity || discriminate).
    cbn [rbind ret rev]. rewrite Hz, Hin, Him. unfold get_assign. rewrite Hk. reflexivity.
  - (* the prelude is empty: above x stand the list display of the body, the subscript [-1], the lambda and the
       binding of f: 8 *)
    unfold prelude, ret_prog. cbn [existsb visits]. rewrite !(ex_live_before_marks _ _ _ false) by reflexivity.
    bound_height.
Qed.
