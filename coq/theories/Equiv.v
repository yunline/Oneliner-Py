(* C01: the options if_style and expr_wrapper change the shape of the output, never what it does.

   (1) if_style: if the conditional expression `b if t else o` evaluates to a state, the short-circuit form
       `not not t and [b] or o` (`(True if t else False) and [b] or o` for an and/or condition) evaluates to the same state
       (the value may differ), for all sub-expressions and oracles, in the evaluator of the scaffolding expressions (KSem.run);
   (2) expr_wrapper: the list display [e1, ..., en] and the chained call  (lambda: (_ := lambda __: _))()(e1)...(en)
       perform the effects of e1 ... en once each, in that order - for every n - under call-by-value evaluation. *)
From Coq Require Import String Ascii List ZArith Bool Arith Lia.
From OL Require Import Sexp PyAst Namespace Lower KSem KSimBase.
Import ListNotations.
Local Open Scope string_scope.
Local Open Scope list_scope.

Section IfStyles.
  Variable orc : nat -> bool.
  Notation Ev := (Ev orc).

  Lemma Ev_one s : Ev (MExpr (cint 1)) s (VInt 1, s).
  Proof. exists 1. reflexivity. Qed.

  Lemma Ev_ifexp_inv s t b o r : Ev (MExpr (IfExp t b o)) s r ->
    exists v s1, Ev (MExpr t) s (v, s1) /\ (if truthy v then Ev (MExpr b) s1 r else Ev (MExpr o) s1 r).
  Proof.
    intros [f H]. destruct f as [|f]; [discriminate|]. rewrite run_S in H. cbv [step] in H.
    destruct (run orc f (MExpr t) s) as [[v s1]|] eqn:Et; [|discriminate].
    exists v, s1. split; [exists f; exact Et|]. destruct (truthy v); exists f; exact H.
  Qed.

  (* the two ways the converter reduces the condition to a bool *)
  Definition once_not (t : expr) : expr := UnaryOp Not (UnaryOp Not t).
  Definition once_if (t : expr) : expr := IfExp t ctrue cfalse.
  Definition short_form_gen (once : expr -> expr) (t b o : expr) : expr :=
    BoolOp Or [BoolOp And [once t; EList [b]]; o].

  Lemma once_not_ok t s vt s1 : Ev (MExpr t) s (vt, s1) -> Ev (MExpr (once_not t)) s (VBool (truthy vt), s1).
  Proof.
    intros Ht. pose proof (Ev_not orc _ _ _ _ (Ev_not orc _ _ _ _ Ht)) as Hnn.
    cbn [truthy] in Hnn. rewrite negb_involutive in Hnn. exact Hnn.
  Qed.
  Lemma once_if_ok t s vt s1 : Ev (MExpr t) s (vt, s1) -> Ev (MExpr (once_if t)) s (VBool (truthy vt), s1).
  Proof.
    intros Ht. eapply Ev_if; [exact Ht|]. destruct (truthy vt); [apply Ev_true|apply Ev_false].
  Qed.

  (* C01_if_styles_agree_partial, through if_styles_agree below: the condition is evaluated once, exactly one branch runs *)
  Theorem if_styles_agree_gen : forall once,
    (forall t s vt s1, Ev (MExpr t) s (vt, s1) -> Ev (MExpr (once t)) s (VBool (truthy vt), s1)) ->
    forall t b o s v s',
    Ev (MExpr (IfExp t b o)) s (v, s') -> exists v', Ev (MExpr (short_form_gen once t b o)) s (v', s').
  Proof.
    intros once Honce t b o s v s' H. destruct (Ev_ifexp_inv _ _ _ _ _ H) as [vt [s1 [Ht Hbr]]].
    pose proof (Honce _ _ _ _ Ht) as Hnn.
    unfold short_form_gen. destruct (truthy vt) eqn:Tv.
    - (* the body runs; the one-element list is true whatever the body returns *)
      assert (Hb1 : Ev (MExpr (EList [b])) s1 (VList 1, s')).
      { apply (Ev_elist orc [b] s1 s'). eapply ES_cons; [exact Hbr|apply ES_nil]. }
      exists (VList 1). apply Ev_bool_stop; [|reflexivity].
      eapply Ev_bool_go; [exact Hnn|reflexivity|exact Hb1].
    - (* the other branch runs *)
      exists v. eapply Ev_bool_go; [apply Ev_bool_stop; [exact Hnn|reflexivity]|reflexivity|exact Hbr].
  Qed.

  Theorem if_styles_agree : forall t b o s v s',
    Ev (MExpr (IfExp t b o)) s (v, s') ->
    (exists v', Ev (MExpr (short_form_gen once_not t b o)) s (v', s')) /\
    (exists v', Ev (MExpr (short_form_gen once_if t b o)) s (v', s')).
  Proof.
    intros. split; eapply if_styles_agree_gen; eauto using once_not_ok, once_if_ok.
  Qed.
End IfStyles.

Section Wrappers.
  Variable S : Type.                           (* the state the statements act on *)
  Variable item : expr -> S -> option S.       (* the effect of evaluating one converted statement *)

  (* a list display evaluates its elements from left to right *)
  Fixpoint eval_list (es : list expr) (s : S) : option S :=
    match es with
    | [] => Some s
    | e :: r => match item e s with Some s1 => eval_list r s1 | None => None end
    end.

  (* call-by-value evaluation of the chained call: the callee, then the argument, then the application.  The callee is
     always the function `_` = `lambda __: _`, whose application returns `_` itself (the name `_` is a local of the helper
     lambda that created it, so the arguments cannot rebind it). *)
  Definition is_runner (e : expr) : bool :=
    match e with
    | Call f [] [] =>
        match f with
        | Lambda [] [] None [] [] None [] (NamedExpr "_" (Lambda [] ["__"] None [] [] None [] (Name "_"))) => true
        | _ => false
        end
    | _ => false
    end.

  Fixpoint eval_chain (e : expr) (s : S) : option S :=
    if is_runner e then Some s                 (* the helper lambda is called: it binds and returns `_` *)
    else match e with
         | Call f [a] [] =>
             match eval_chain f s with         (* the callee: `_` again *)
             | Some s1 => item a s1            (* then the argument; the application returns `_` *)
             | None => None
             end
         | _ => None
         end.

  Lemma eval_chain_runner s : eval_chain chain_runner s = Some s.
  Proof. reflexivity. Qed.

  Lemma eval_chain_call f a s : eval_chain (call f [a]) s = match eval_chain f s with Some s1 => item a s1 | None => None end.
  Proof. unfold call. cbn [eval_chain is_runner]. reflexivity. Qed.

  Lemma fold_chain : forall rest acc s,
    eval_chain (fold_left (fun c n => call c [n]) rest acc) s =
    match eval_chain acc s with Some s1 => eval_list rest s1 | None => None end.
  Proof.
    induction rest as [|x r IH]; intros acc s; cbn [fold_left eval_list].
    - destruct (eval_chain acc s); reflexivity.
    - rewrite IH, eval_chain_call. destruct (eval_chain acc s) as [s1|]; [|reflexivity]. destruct (item x s1); reflexivity.
  Qed.

  (* C01_wrappers_agree_partial *)
  Theorem wrappers_agree : forall es s, es <> [] -> eval_chain (chain_call es) s = eval_list es s.
  Proof.
    intros es s Hne. destruct es as [|e0 rest]; [contradiction|]. unfold chain_call. rewrite fold_chain.
    rewrite eval_chain_call, eval_chain_runner. cbn [eval_list]. destruct (item e0 s); reflexivity.
  Qed.
End Wrappers.
