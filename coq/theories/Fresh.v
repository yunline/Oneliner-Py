(* C09: the helper names of the converter model.  All of them are built by [ol]; they carry the reserved prefix,
   and names built for different purposes or for different statement positions are different. *)
From Coq Require Import String Ascii List ZArith Bool Arith Lia.
From OL Require Import Sexp PyAst Namespace Lower Names.
Import ListNotations.
Open Scope string_scope.

Fixpoint is_prefix_str (p s : string) : bool :=
  match p, s with
  | EmptyString, _ => true
  | String a p', String b s' => Ascii.eqb a b && is_prefix_str p' s'
  | _, EmptyString => false
  end.

Definition reserved (s : ident) : bool := is_prefix_str "__ol_" s.

Theorem helper_reserved : forall k s, reserved (ol k s) = true.
Proof. intros k s. reflexivity. Qed.

Theorem user_name_not_helper : forall x k s, reserved x = false -> x <> ol k s.
Proof. intros x k s H E. subst x. rewrite helper_reserved in H. discriminate. Qed.

(* the purposes ("kinds") of helper names that [helpers_distinct_kinds] speaks of.  Lower.v builds names of four more
   kinds, "augobj", "hook", "bases" and "kwds"; the theorem says nothing about those. *)
Definition helper_kinds : list string :=
  ["break"; "interrupt"; "it"; "for"; "while"; "assign"; "augass"; "sllice"; "mod"; "loader"; "key"; "value";
   "retv"; "ret"; "nonlocal"; "classnsp"].

Lemma kinds_diverge : forall k1 k2, List.In k1 helper_kinds -> List.In k2 helper_kinds -> k1 <> k2 ->
  diverge (k1 ++ "_") (k2 ++ "_") = true.
Proof.
  (* a finite table: all pairs of kinds are compared by evaluation *)
  assert (H : forallb (fun k1 => forallb (fun k2 => String.eqb k1 k2 || diverge (k1 ++ "_") (k2 ++ "_")) helper_kinds) helper_kinds = true)
    by reflexivity.
  intros k1 k2 H1 H2 Hne. rewrite forallb_forall in H. specialize (H k1 H1). rewrite forallb_forall in H. specialize (H k2 H2).
  apply orb_true_iff in H. destruct H as [H|H]; [apply String.eqb_eq in H; contradiction|exact H].
Qed.

Theorem helpers_distinct_kinds : forall k1 k2 s1 s2, List.In k1 helper_kinds -> List.In k2 helper_kinds -> k1 <> k2 ->
  ol k1 s1 <> ol k2 s2.
Proof. intros. apply ol_kind_ne. apply kinds_diverge; assumption. Qed.

Theorem helpers_distinct_positions : forall k p q, p <> q -> ol k (path_str p) <> ol k (path_str q).
Proof. intros k p q Hne E. apply Hne. apply path_str_inj. eapply ol_inj_same. exact E. Qed.

Theorem helpers_distinct_namespaces : forall k i j, i <> j -> ol k (ncode i) <> ol k (ncode j).
Proof. intros k i j Hne E. apply Hne. apply ncode_inj. eapply ol_inj_same. exact E. Qed.

Theorem position_code_injective : forall p q, path_str p = path_str q -> p = q.
Proof. exact path_str_inj. Qed.

Example fresh_example :
  ol "break" (path_str [1; 0; 2]) <> ol "interrupt" (path_str [1; 0; 2]) /\
  ol "break" (path_str [1; 0; 2]) <> ol "break" (path_str [0; 0; 2]) /\ reserved "itertools" = false.
Proof.
  split; [apply helpers_distinct_kinds; cbn; auto; discriminate|]. split; [apply helpers_distinct_positions; discriminate|reflexivity].
Qed.
