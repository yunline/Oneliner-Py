(* C04: string literal codec.  [decode] is a reference decoder for the body of a (non-raw) Python string
   literal delimited by the quote q, written from the language reference (2.4.1); the theorems show that
   the text produced by the unparser's escaping decodes back to the original code points and stays on
   one line.  Each escape is shown to decode to its code point alone: for the
   generated table (code points 0..0x2FF) by running the decoder on every entry, for the surrogate block by the
   arithmetic of four hexadecimal digits; the decoder is compositional, which lifts this to all strings. *)
From Coq Require Import String Ascii List ZArith NArith Bool Arith Lia.
From OL Require Import Sexp PyAst Unparse.
From OLGen Require Import Tables.
Import ListNotations.
Open Scope list_scope.
Local Open Scope N_scope.

Definition BSL : N := 92.

Definition hexval (c : N) : option N :=
  if (48 <=? c) && (c <=? 57) then Some (c - 48)
  else if (97 <=? c) && (c <=? 102) then Some (c - 87)
  else if (65 <=? c) && (c <=? 70) then Some (c - 55)
  else None.

Definition simple_escape (c : N) : option N :=
  if c =? 92 then Some 92 else if c =? 39 then Some 39 else if c =? 34 then Some 34
  else if c =? 110 then Some 10 else if c =? 114 then Some 13 else if c =? 116 then Some 9
  else if c =? 97 then Some 7 else if c =? 98 then Some 8 else if c =? 102 then Some 12 else if c =? 118 then Some 11
  else None.

Inductive dstate := DNorm | DEsc | DHex (need : nat) (acc : N).

(* one character of the literal body; None = the text is not the body of a one-line literal delimited by q *)
Definition dstep (q : N) (st : dstate) (c : N) : option (dstate * list N) :=
  match st with
  | DNorm =>
      if c =? BSL then Some (DEsc, [])
      else if (c =? q) || (c =? 10) || (c =? 13) then None
      else Some (DNorm, [c])
  | DEsc =>
      if c =? 120 then Some (DHex 2 0, [])            (* \xhh *)
      else if c =? 117 then Some (DHex 4 0, [])       (* \uhhhh *)
      else if c =? 85 then Some (DHex 8 0, [])        (* \Uhhhhhhhh *)
      else match simple_escape c with
           | Some v => Some (DNorm, [v])
           | None => None                             (* octal / \N{..} / unknown escapes: not produced, not modelled *)
           end
  | DHex need acc =>
      match hexval c, need with
      | Some h, S O => Some (DNorm, [acc * 16 + h])
      | Some h, S k => Some (DHex k (acc * 16 + h), [])
      | _, _ => None
      end
  end.

Fixpoint dec (q : N) (st : dstate) (t : list N) (out : list N) : option (list N) :=
  match t with
  | [] => match st with DNorm => Some (rev out) | _ => None end
  | c :: r =>
      match dstep q st c with
      | Some (st', o) => dec q st' r (rev o ++ out)
      | None => None
      end
  end.

Definition decode (q : N) (t : list N) : option (list N) := dec q DNorm t [].

(* f-string literal text: doubled braces denote one brace; a single brace would start/end a field *)
Fixpoint undouble (t : list N) : option (list N) :=
  match t with
  | [] => Some []
  | c :: r =>
      if (c =? LBRACE) || (c =? RBRACE) then
        match r with
        | c' :: r' => if c' =? c then option_map (cons c) (undouble r') else None
        | [] => None
        end
      else option_map (cons c) (undouble r)
  end.
Definition fdecode (q : N) (t : list N) : option (list N) :=
  match undouble t with Some u => decode q u | None => None end.

Definition no_newline (t : list N) : bool := forallb (fun c => negb ((c =? 10) || (c =? 13))) t.

Definition is_quote (q : N) : Prop := q = SQ \/ q = DQ.

(* The decoder is back in its normal state at the end of a chunk that decodes on its own.  This is what lets a string be
   decoded escape by escape. *)
Lemma dec_app q : forall t st acc r, dec q st t acc = Some r ->
  forall rest out, dec q st (t ++ rest) (acc ++ out) = dec q DNorm rest (rev r ++ out).
Proof.
  induction t as [|c t IH]; intros st acc r H rest out; cbn [dec app] in *.
  - destruct st; try discriminate. injection H as <-. rewrite rev_involutive. reflexivity.
  - destruct (dstep q st c) as [[st' o]|]; [|discriminate].
    rewrite app_assoc. exact (IH _ _ _ H rest out).
Qed.

Lemma dstep_no_newline q st c r : dstep q st c = Some r -> negb ((c =? 10) || (c =? 13)) = true.
Proof.
  intros H. destruct (N.eqb_spec c 10) as [->|_]; [|destruct (N.eqb_spec c 13) as [->|_]; [|reflexivity]];
    destruct st; cbn in H; rewrite ?orb_true_r in H; discriminate H.
Qed.

Lemma dec_no_newline q : forall t st acc r, dec q st t acc = Some r -> no_newline t = true.
Proof.
  induction t as [|c t IH]; intros st acc r H; [reflexivity|]. cbn [dec] in H.
  destruct (dstep q st c) as [[st' o]|] eqn:E; [|discriminate].
  cbn [no_newline forallb]. rewrite (dstep_no_newline _ _ _ _ E). exact (IH _ _ _ H).
Qed.

Lemma no_newline_app : forall a b, no_newline (a ++ b) = no_newline a && no_newline b.
Proof. intros a b. unfold no_newline. apply forallb_app. Qed.

Definition esc_ok (q c : N) (t : list N) : bool :=
  match decode q t with Some [x] => x =? c | _ => false end.

Lemma esc_ok_decode q c t : esc_ok q c t = true -> decode q t = Some [c].
Proof.
  unfold esc_ok. destruct (decode q t) as [[|x [|y r]]|]; try discriminate.
  intros H. apply N.eqb_eq in H. subst. reflexivity.
Qed.

(* the finite part: entry number k of a table is a correct escape of code point i + k *)
Fixpoint tbl_ok (q i : N) (tbl : list (list N)) : bool :=
  match tbl with [] => true | t :: r => esc_ok q i t && tbl_ok q (N.succ i) r end.

Lemma tbl_ok_nth q : forall tbl i k t, tbl_ok q i tbl = true -> nth_error tbl k = Some t ->
  esc_ok q (i + N.of_nat k) t = true.
Proof.
  induction tbl as [|t0 tbl IH]; intros i [|k] t H Hn; try discriminate;
    cbn [tbl_ok] in H; apply andb_true_iff in H; destruct H as [H0 H1].
  - injection Hn as <-. rewrite N.add_0_r. exact H0.
  - rewrite Nat2N.inj_succ, <- N.add_succ_comm. exact (IH _ _ _ H1 Hn).
Qed.

Definition table (q : N) : list (list N) := if q =? SQ then escape_table_sq else escape_table_dq.

Lemma table_ok q : is_quote q -> tbl_ok q 0 (table q) = true /\ N.of_nat (length (table q)) = 768.
Proof. intros [-> | ->]; vm_compute; auto. Qed.

(* a check made when the development is built, used by nothing: [escape_samples] is written by gen_tables.py from the real
   escaping function, and on these code points, which lie above the table, [escape_cp] gives what the function gave *)
Lemma escape_samples_agree :
  forallb (fun s => match s with (c, a, b) =>
             (if list_eq_dec N.eq_dec (escape_cp SQ c) a then true else false) &&
             (if list_eq_dec N.eq_dec (escape_cp DQ c) b then true else false) end) escape_samples = true.
Proof. vm_compute. reflexivity. Qed.

Lemma hexval_hexdigit d : d < 16 -> hexval (hexdigit d) = Some d.
Proof.
  intros H. unfold hexdigit, hexval. destruct (N.ltb_spec d 10).
  - replace ((48 <=? 48 + d) && (48 + d <=? 57)) with true by (symmetry; apply andb_true_iff; split; apply N.leb_le; lia).
    f_equal. lia.
  - replace ((48 <=? 87 + d) && (87 + d <=? 57)) with false by (symmetry; apply andb_false_iff; right; apply N.leb_gt; lia).
    replace ((97 <=? 87 + d) && (87 + d <=? 102)) with true by (symmetry; apply andb_true_iff; split; apply N.leb_le; lia).
    f_equal. lia.
Qed.

Lemma dec_hex q k acc d t out : d < 16 ->
  dec q (DHex (S k) acc) (hexdigit d :: t) out =
  match k with O => dec q DNorm t (acc * 16 + d :: out) | _ => dec q (DHex k (acc * 16 + d)) t out end.
Proof. intros H. cbn [dec dstep]. rewrite (hexval_hexdigit d H). destruct k; reflexivity. Qed.

(* the left side is what [DHex 4 0] has accumulated after the four digits, hence the leading [0 * 16] *)
Lemma hex4_value c : c < 65536 ->
  (((0 * 16 + c / 4096 mod 16) * 16 + c / 256 mod 16) * 16 + c / 16 mod 16) * 16 + c mod 16 = c.
Proof.
  intros H. assert (S : forall a, a / 16 * 16 + a mod 16 = a).
  { intros a. rewrite N.mul_comm. symmetry. apply N.div_mod'. }
  rewrite N.mul_0_l, N.add_0_l, (N.mod_small (c / 4096)) by (apply N.div_lt_upper_bound; [discriminate|exact H]).
  change 4096 with (256 * 16). rewrite <- N.div_div, S by discriminate.
  change 256 with (16 * 16). rewrite <- N.div_div, S by discriminate. apply S.
Qed.

(* \uXXXX, which the escaping writes for a surrogate, gives the code point back *)
Lemma dec_u4 q c rest out : c < 65536 -> dec q DNorm (92 :: 117 :: hex4 c ++ rest) out = dec q DNorm rest (c :: out).
Proof.
  intros H. change (dec q (DHex 4 0) (hex4 c ++ rest) out = dec q DNorm rest (c :: out)).
  unfold hex4. cbn [app]. rewrite !dec_hex by (apply N.mod_lt; discriminate). rewrite (hex4_value c H). reflexivity.
Qed.

(* every code point: in the table, a surrogate, or emitted unchanged *)
Lemma escape_cp_ok q c : is_quote q -> esc_ok q c (escape_cp q c) = true.
Proof.
  intros Hq. destruct (table_ok q Hq) as [T Ln]. unfold escape_cp. fold (table q).
  destruct (nth_error (table q) (N.to_nat c)) as [t|] eqn:E.
  - rewrite <- (N2Nat.id c) at 1. exact (tbl_ok_nth q _ 0 _ t T E).
  - apply nth_error_None in E. assert (Hc : 768 <= c) by lia. clear E Ln T. unfold esc_ok, decode. destruct (is_surrogate c) eqn:Hs.
    + unfold is_surrogate in Hs. apply andb_true_iff in Hs. destruct Hs as [_ H2]. apply N.leb_le in H2.
      rewrite <- (app_nil_r (hex4 c)), dec_u4 by lia. cbn. apply N.eqb_refl.
    + assert (c <> BSL /\ c <> 10 /\ c <> 13 /\ c <> q) as (A & B & C & D).
      { unfold BSL. destruct Hq as [-> | ->]; unfold SQ, DQ; repeat split; lia. }
      apply N.eqb_neq in A, B, C, D. cbn [dec dstep]. rewrite A, B, C, D. cbn. apply N.eqb_refl.
Qed.

Lemma dec_escape q s : is_quote q -> forall rest out, dec q DNorm (escape q s ++ rest) out = dec q DNorm rest (rev s ++ out).
Proof.
  intros Hq. induction s as [|c s IH]; intros rest out; [reflexivity|].
  unfold escape in *. cbn [flat_map]. rewrite <- app_assoc.
  rewrite (dec_app q _ _ [] _ (esc_ok_decode _ _ _ (escape_cp_ok q c Hq)) _ out), IH.
  cbn [rev]. rewrite <- !app_assoc. reflexivity.
Qed.

(* C04_str_codec *)
Theorem str_codec : forall q s, is_quote q -> decode q (escape q s) = Some s.
Proof.
  intros q s Hq. unfold decode. rewrite <- (app_nil_r (escape q s)). rewrite dec_escape by exact Hq.
  cbn [dec]. rewrite app_nil_r, rev_involutive. reflexivity.
Qed.

Theorem escape_single_line : forall q s, is_quote q -> no_newline (escape q s) = true.
Proof. intros q s Hq. exact (dec_no_newline q _ _ _ _ (str_codec q s Hq)). Qed.

Lemma undouble_double : forall t, undouble (double_braces t) = Some t.
Proof.
  induction t as [|c t IH]; [reflexivity|].
  unfold double_braces in *. cbn [flat_map].
  destruct (N.eqb_spec c LBRACE) as [->|H1].
  - cbn [app undouble]. change (LBRACE =? LBRACE) with true. cbn. rewrite IH. reflexivity.
  - destruct (N.eqb_spec c RBRACE) as [->|H2].
    + cbn [app undouble]. change (RBRACE =? LBRACE) with false. change (RBRACE =? RBRACE) with true. cbn. rewrite IH. reflexivity.
    + cbn [app undouble]. apply N.eqb_neq in H1, H2. rewrite H1, H2. cbn. rewrite IH. reflexivity.
Qed.

Theorem fstring_text_codec : forall q s, is_quote q -> fdecode q (double_braces (escape q s)) = Some s.
Proof. intros q s Hq. unfold fdecode. rewrite undouble_double. apply str_codec. exact Hq. Qed.

Lemma double_braces_single_line : forall t, no_newline t = true -> no_newline (double_braces t) = true.
Proof.
  induction t as [|c t IH]; intros H; [reflexivity|]. cbn in H. apply andb_true_iff in H. destruct H as [Hc Ht].
  unfold double_braces in *. cbn [flat_map]. rewrite no_newline_app, (IH Ht), andb_true_r.
  destruct (c =? LBRACE); [reflexivity|]. destruct (c =? RBRACE); [reflexivity|]. cbn. rewrite Hc. reflexivity.
Qed.

(* non-vacuity / sanity: a string using every escape class *)
Example codec_example :
  decode SQ (escape SQ [39; 34; 92; 10; 13; 9; 0; 255; 256; 55296; 128512; 123])
  = Some [39; 34; 92; 10; 13; 9; 0; 255; 256; 55296; 128512; 123].
Proof. vm_compute. reflexivity. Qed.
