(* C07: order and multiplicity of the evaluation of source subexpressions.
   [events e]: the probe subexpressions p(k) that evaluating e evaluates, in Python's left-to-right order
   (function before arguments, arguments before keywords, operands left to right, a lambda evaluates its defaults
   but not its body, a conditional evaluates its test and then ONE branch - defined when both branches evaluate the
   same probes).  [src_*]: the order the language reference prescribes for the statement.  Theorems: they coincide. *)
From Coq Require Import String List ZArith Bool Arith.
From OL Require Import Sexp PyAst Namespace Lower FuncDef ClassNs.
From OLGen Require Import Tables.
Import ListNotations.
Open Scope string_scope.
Open Scope list_scope.

Definition oapp (a b : option (list Z)) : option (list Z) :=
  match a, b with Some x, Some y => Some (x ++ y) | _, _ => None end.

Fixpoint zl_eqb (a b : list Z) : bool :=
  match a, b with
  | [], [] => true
  | x :: a', y :: b' => Z.eqb x y && zl_eqb a' b'
  | _, _ => false
  end.
Lemma zl_eqb_refl a : zl_eqb a a = true.
Proof. induction a; cbn; [reflexivity|]. rewrite Z.eqb_refl. exact IHa. Qed.

(* p(k) *)
Definition is_probe (e : expr) : option Z :=
  match e with
  | Call (Name f) args kws =>
      match kws with
      | [] => match args with
              | [x] => match x with Constant (CInt k) => if String.eqb f "p" then Some k else None | _ => None end
              | _ => None
              end
      | _ => None
      end
  | _ => None
  end.

Fixpoint events (e : expr) : option (list Z) :=
  let evl := fix evl (l : list expr) : option (list Z) :=
    match l with [] => Some [] | x :: r => oapp (events x) (evl r) end in
  let evo := fun (o : option expr) => match o with Some x => events x | None => Some [] end in
  let evlo := fix evlo (l : list (option expr)) : option (list Z) :=
    match l with [] => Some [] | x :: r => oapp (evo x) (evlo r) end in
  match e with
  | Name _ | Constant _ => Some []
  | Call f args kws =>
      match is_probe e with
      | Some k => Some [k]
      | None =>
          oapp (events f) (oapp (evl args)
            ((fix evk (l : list (option ident * expr)) : option (list Z) :=
                match l with [] => Some [] | kw :: r => oapp (events (snd kw)) (evk r) end) kws))
      end
  | NamedExpr _ v => events v
  | EList es | ETuple es => evl es
  | Attribute v _ => events v
  | Subscript v s => oapp (events v) (events s)
  | Slice a b c => oapp (evo a) (oapp (evo b) (evo c))
  | BinOp l _ r => oapp (events l) (events r)
  | UnaryOp _ v => events v
  | IfExp t b o =>
      match events b, events o with
      | Some eb, Some eo => if zl_eqb eb eo then oapp (events t) (Some eb) else None
      | _, _ => None
      end
  | Lambda _ _ _ _ kd _ de _ => oapp (evl de) (evlo kd)       (* positional defaults, then keyword-only defaults *)
  | EDict [] [] => Some []                                     (* the empty display the class creation passes *)
  | _ => None
  end.

Fixpoint events_seq (es : list expr) : option (list Z) :=
  match es with [] => Some [] | x :: r => oapp (events x) (events_seq r) end.

Lemma oapp_nil_r a : oapp a (Some []) = a.
Proof. destruct a; cbn; [rewrite app_nil_r|]; reflexivity. Qed.
Lemma oapp_nil_l a : oapp (Some []) a = a.
Proof. destruct a; reflexivity. Qed.
Lemma oapp_assoc a b c : oapp (oapp a b) c = oapp a (oapp b c).
Proof. destruct a, b, c; cbn; try reflexivity. rewrite app_assoc. reflexivity. Qed.
Lemma events_seq_app a b : events_seq (a ++ b) = oapp (events_seq a) (events_seq b).
Proof.
  induction a as [|x r IH]; cbn [app events_seq]; [destruct (events_seq b); reflexivity|].
  rewrite IH, oapp_assoc. reflexivity.
Qed.

(* [evl] and [evk], two of the three list traversals local to [events], are [events_seq]; [evlo] skips the absent entries
   of its list and is taken apart where it occurs, in def_order *)
Lemma evl_events_seq l :
  (fix evl (l : list expr) : option (list Z) := match l with [] => Some [] | x :: r => oapp (events x) (evl r) end) l = events_seq l.
Proof. induction l; cbn; [reflexivity|]. rewrite IHl. reflexivity. Qed.

Lemma evk_events_seq (kws : list (option ident * expr)) :
  (fix evk (l : list (option ident * expr)) : option (list Z) :=
     match l with [] => Some [] | kw :: r => oapp (events (snd kw)) (evk r) end) kws = events_seq (map snd kws).
Proof. induction kws as [|kw r IH]; cbn; [reflexivity|]. rewrite IH. reflexivity. Qed.

Lemma events_call f args kws : is_probe (Call f args kws) = None ->
  events (Call f args kws) = oapp (events f) (oapp (events_seq args) (events_seq (map snd kws))).
Proof. intros P. cbn [events]. rewrite P, evl_events_seq, evk_events_seq. reflexivity. Qed.

(* [f] is not a constant, so that [d(f)] cannot be the probe p(k); the same hypothesis below, for the same reason *)
Lemma events_call1 d f : (forall c, f <> Constant c) -> events (call d [f]) = oapp (events d) (events f).
Proof.
  intros Hf. unfold call. rewrite events_call.
  - cbn [events_seq map]. rewrite !oapp_nil_r. reflexivity.
  - unfold is_probe. destruct d; try reflexivity. destruct f; try reflexivity. destruct (Hf _ eq_refl).
Qed.

(* an expression the rewriting leaves unchanged at module level (probes, names, attribute chains ...) *)
Definition stable (g : nsp) (e : expr) : Prop := tr g e = inl e.

(* reference orders (language reference 7.2, 7.2.1, 8.7) *)
Definition target_events (t : expr) : option (list Z) :=
  match t with
  | Name _ => Some []
  | Attribute o _ => events o
  | Subscript o i => oapp (events o) (events i)
  | _ => None
  end.

(* assignment: the value, then the targets from left to right (object, then index) *)
Fixpoint src_targets (ts : list expr) : option (list Z) :=
  match ts with [] => Some [] | t :: r => oapp (target_events t) (src_targets r) end.
Definition src_assign (ts : list expr) (v : expr) : option (list Z) := oapp (events v) (src_targets ts).

(* augmented assignment: the target's object (and index) once, then the value *)
Definition src_augassign (t v : expr) : option (list Z) := oapp (target_events t) (events v).

(* def: decorators from top to bottom, then the parameter defaults *)
Definition src_def (decs : list expr) (args : arguments) : option (list Z) :=
  oapp (events_seq decs) (oapp (events_seq (a_defaults args))
       ((fix evlo (l : list (option expr)) : option (list Z) :=
           match l with [] => Some [] | Some x :: r => oapp (events x) (evlo r) | None :: r => evlo r end) (a_kw_defaults args))).

Lemma events_hasattr x s a b : events a = events b ->
  events (IfExp (call (Name "hasattr") [Name x; cstr s]) a b) = events a.
Proof.
  intros E. unfold call, cstr. cbn [events is_probe]. rewrite <- E.
  destruct (events a); [rewrite zl_eqb_refl|]; reflexivity.
Qed.

Lemma events_method x m v : events (call (Attribute (Name x) m) [v]) = events v.
Proof. unfold call. cbn [events is_probe]. rewrite oapp_nil_l, !oapp_nil_r. reflexivity. Qed.

(* the in-place method and the fallback both evaluate the value, once *)
Lemma events_aug_expr x op v : events (aug_expr (Name x) op v (NamedExpr x (BinOp (Name x) op v))) = events v.
Proof. unfold aug_expr. rewrite events_hasattr; rewrite events_method; [|cbn [events]; rewrite oapp_nil_l]; reflexivity. Qed.

Section Order.
  Variable g : nsp.
  Hypothesis Hg : n_kind g = NGlobal.

  Definition simple_target (t : expr) : Prop :=
    match t with
    | Name _ => True
    | Attribute o _ => stable g o
    | Subscript o i => stable g o /\ stable g i /\ (match i with Slice _ _ _ | ETuple _ => False | _ => True end)
    | _ => False
    end.

  Lemma store_events p t v : simple_target t -> events v = Some [] ->
    exists es, assign_auto g p t v = inl es /\ events_seq es = target_events t.
  Proof.
    intros Ht Hv. destruct t; try contradiction; cbn [simple_target target_events assign_auto] in *.
    - rewrite (get_assign_global g _ v Hg). eexists. split; [reflexivity|]. cbn [events_seq events]. rewrite Hv. reflexivity.
    - unfold assign_attribute. rewrite Ht. eexists. split; [reflexivity|].
      unfold call, cstr. cbn [events_seq events is_probe]. rewrite Hv, ?oapp_nil_l, ?oapp_nil_r. reflexivity.
    - destruct Ht as (Ho & Hi & Hs). unfold assign_subscript. rewrite Ho, Hi. cbn [rbind ret]. rewrite (convert_index_plain _ Hs).
      eexists. split; [reflexivity|].
      unfold call. cbn [events_seq events is_probe]. rewrite Hv, ?oapp_nil_l, ?oapp_nil_r. reflexivity.
  Qed.

  Lemma stores_events : forall ts p k v, Forall simple_target ts -> events v = Some [] ->
    exists es,
      (fix go (ts : list expr) (k : nat) : res (list expr) :=
         match ts with
         | [] => ret []
         | t :: r => let! a := assign_auto g (k :: p) t v in let! b := go r (S k) in ret (a ++ b)
         end) ts k = inl es /\ events_seq es = src_targets ts.
  Proof.
    induction ts as [|t r IH]; intros p k v HF Hv.
    - exists []. split; reflexivity.
    - inversion HF as [|? ? Ht Hr]; subst.
      destruct (store_events (k :: p) t v Ht Hv) as [a [Ha Ea]].
      destruct (IH p (S k) v Hr Hv) as [b [Hb Eb]].
      exists (a ++ b). split.
      + rewrite Ha. cbn [rbind]. rewrite Hb. reflexivity.
      + rewrite events_seq_app, Ea, Eb. reflexivity.
  Qed.

  Lemma shared_or_name ts : ts <> [] -> Forall simple_target ts -> shared_value ts = true \/ exists x, ts = [Name x].
  Proof.
    intros Hne HF. destruct ts as [|t [|t2 r]]; [contradiction| |left; reflexivity].
    inversion HF as [|? ? Ht _]; subst. destruct t; try contradiction; [right; eexists|left|left]; reflexivity.
  Qed.

  (* assignment, any number of targets, each a name / attribute / subscript: the value exactly once and first, then the
     targets' objects and indices from left to right - Python's order *)
  Theorem assign_order : forall cfg loops ru p ts v,
    ts <> [] -> Forall simple_target ts -> stable g v ->
    exists es, lower_stmt cfg (mkCtx g loops ru) p (SAssign ts v) = inl es /\ events_seq es = src_assign ts v.
  Proof.
    intros cfg loops ru p ts v Hne HF Hv. cbn [lower_stmt c_nsp]. rewrite Hv. cbn [rbind]. unfold src_assign.
    destruct (shared_or_name ts Hne HF) as [Hs|[x ->]].
    - rewrite Hs. destruct (stores_events ts p 0 (Name (ol "assign" (path_str p))) HF eq_refl) as [es [He Ee]].
      rewrite He. eexists. split; [reflexivity|]. cbn [app events_seq events]. rewrite Ee. reflexivity.
    - cbn [shared_value assign_auto]. rewrite (get_assign_global g x v Hg). eexists. split; [reflexivity|].
      cbn [app events_seq src_targets target_events events]. reflexivity.
  Qed.

  (* augmented assignment to a name: the value exactly once (whichever branch runs) *)
  Theorem augassign_name_order : forall cfg loops ru p x op v evs,
    stable g v -> events v = Some evs ->
    exists es, lower_stmt cfg (mkCtx g loops ru) p (SAugAssign (Name x) op v) = inl es /\ events_seq es = Some evs.
  Proof.
    intros cfg loops ru p x op v evs Hv He. cbn [lower_stmt c_nsp]. unfold lower_augassign. rewrite Hv. cbn [rbind].
    unfold get_load_name. rewrite Hg. cbn [rbind ret]. rewrite !(get_assign_global g x _ Hg). eexists. split; [reflexivity|].
    cbn [events_seq]. rewrite oapp_nil_r, events_hasattr; cbn [events]; rewrite events_method; [exact He|].
    rewrite oapp_nil_l. reflexivity.
  Qed.

  (* ... to an attribute: the object exactly once, then the value exactly once *)
  Theorem augassign_attr_order : forall cfg loops ru p o a op v eo evs,
    stable g o -> stable g v -> events o = Some eo -> events v = Some evs ->
    exists es, lower_stmt cfg (mkCtx g loops ru) p (SAugAssign (Attribute o a) op v) = inl es /\
               events_seq es = Some (eo ++ evs).
  Proof.
    intros cfg loops ru p o a op v eo evs Ho Hv Eo Ev. cbn [lower_stmt c_nsp]. unfold lower_augassign.
    rewrite Hv. cbn [rbind]. rewrite Ho. eexists. split; [reflexivity|].
    unfold call, cstr. cbn [events_seq events is_probe]. rewrite events_aug_expr, Eo, Ev, ?oapp_nil_l, ?oapp_nil_r. reflexivity.
  Qed.

  (* ... to a subscript: object once, index once, then the value once *)
  Theorem augassign_sub_order : forall cfg loops ru p o i op v eo ei evs,
    stable g o -> stable g i -> (match i with Slice _ _ _ | ETuple _ => False | _ => True end) -> stable g v ->
    events o = Some eo -> events i = Some ei -> events v = Some evs ->
    exists es, lower_stmt cfg (mkCtx g loops ru) p (SAugAssign (Subscript o i) op v) = inl es /\
               events_seq es = Some (eo ++ ei ++ evs).
  Proof.
    intros cfg loops ru p o i op v eo ei evs Ho Hi Hs Hv Eo Ei Ev. cbn [lower_stmt c_nsp]. unfold lower_augassign.
    rewrite Hv. cbn [rbind]. rewrite Ho, (convert_index_plain _ Hs), Hi. eexists. split; [reflexivity|].
    unfold call. cbn [events_seq events is_probe]. rewrite events_aug_expr, Eo, Ei, Ev, ?oapp_nil_l, ?oapp_nil_r. reflexivity.
  Qed.
End Order.

(* decorate [d_n; ...; d_1] f = d_1( ... d_n(f)) evaluates d_1 first: for the source order [d_1 (top); ...; d_n] the
   decorator expressions are evaluated top-down, then what f evaluates (its defaults); application is bottom-up *)
Lemma decorate_events : forall ds f, (forall c, f <> Constant c) ->
  events (decorate ds f) = oapp (events_seq (rev ds)) (events f).
Proof.
  induction ds as [|d r IH]; intros f Hf; cbn [decorate fold_left rev].
  - cbn. destruct (events f); reflexivity.
  - fold (decorate r (call d [f])). rewrite IH by (intros c; unfold call; discriminate).
    rewrite events_seq_app. cbn [events_seq]. rewrite oapp_nil_r, oapp_assoc, events_call1 by exact Hf. reflexivity.
Qed.

Lemma decorate_not_const : forall ds f, (forall c, f <> Constant c) -> forall c, decorate ds f <> Constant c.
Proof.
  induction ds as [|d r IH]; intros f Hf c; cbn [decorate fold_left]; [apply Hf|].
  fold (decorate r (call d [f])). apply IH. intros c'. unfold call. discriminate.
Qed.

(* the wrapper put around a class hook is a call of something that evaluates nothing *)
Lemma events_hook_wrap p m name decs e : (forall c, e <> Constant c) -> events (hook_wrap p m name decs e) = events e.
Proof.
  intros He. unfold hook_wrap. destruct (m && is_class_hook name); [|reflexivity].
  destruct decs; rewrite (events_call1 _ e He); apply oapp_nil_l.
Qed.

(* a def at module level with decorators and defaults that the rewriting leaves unchanged: the emitted expression
   evaluates the decorators top-down, then the positional defaults, then the keyword-only defaults - once each *)
Theorem def_order : forall cfg g loops ru p name ln args body decs es,
  n_kind g = NGlobal -> Forall (stable g) decs -> Forall (stable g) (a_defaults args) ->
  Forall (fun d => match d with Some x => stable g x | None => True end) (a_kw_defaults args) ->
  lower_stmt cfg (mkCtx g loops ru) p (SFunctionDef name ln args body decs) = inl es ->
  events_seq es = src_def decs args.
Proof.
  intros cfg g loops ru p name ln args body decs es Hg Hd Hde Hkd H.
  destruct (funcdef_shape _ _ _ _ _ _ _ _ _ H) as (fn & ds & kds & decs' & lbody & e & _ & B & C & D & E).
  cbn [c_nsp] in *.
  apply (rmap_id_inv _ _ _ Hde) in B as ->.
  apply (rmap_id_inv _ _ _ (Forall_rev Hd)) in D as ->.
  apply rmap_id_inv in C as ->;
    [|eapply Forall_impl; [|exact Hkd]; intros [x|] Hx; [cbn beta iota; rewrite Hx|]; reflexivity].
  cbn zeta in E. destruct E as [E ->]. rewrite (get_assign_global g _ _ Hg) in E. injection E as <-.
  cbn [events_seq events]. rewrite oapp_nil_r, events_hook_wrap by (apply decorate_not_const; discriminate).
  rewrite decorate_events, rev_involutive by discriminate.
  unfold src_def. f_equal. cbn [events]. rewrite evl_events_seq. f_equal.
  (* a keyword-only parameter without default evaluates nothing *)
  clear. induction (a_kw_defaults args) as [|[x|] r IH]; cbn; [reflexivity| |]; rewrite IH; [reflexivity|apply oapp_nil_l].
Qed.

(* class header: the bases, then the keywords in the order written - `metaclass=` among them (fix e4f4404) *)
Theorem class_header_order : forall cfg g loops ru p name ln bases kws body decs es,
  n_kind g = NGlobal -> Forall (stable g) bases -> Forall (fun kw => stable g (snd kw)) kws ->
  lower_stmt cfg (mkCtx g loops ru) p (SClassDef name ln bases kws body decs) = inl es ->
  exists create rest, es = create :: rest /\
    events create = oapp (events_seq bases) (events_seq (map snd kws)).
Proof.
  intros cfg g loops ru p name ln bases kws body decs es Hg Hb Hk H.
  destruct (classdef_shape _ _ _ _ _ _ _ _ _ _ H) as (cn & bases' & kws' & create & load & rest & _ & _ & C & D & E & _ & ->).
  cbn [c_nsp] in *.
  apply (rmap_id_inv _ _ _ Hb) in C as ->.
  apply rmap_id_inv in D as ->;
    [|eapply Forall_impl; [|exact Hk]; intros [k v] Hv; cbn [fst snd] in *; rewrite Hv; reflexivity].
  rewrite (get_assign_global g _ _ Hg) in E. injection E as <-.
  eexists _, rest. split; [reflexivity|]. cbn [events]. unfold class_create, cstr.
  (* with or without a metaclass: a callee that evaluates nothing, the tuple of bases among constants, the keywords *)
  destruct (existsb is_meta_kw kws); rewrite events_call by (destruct kws; reflexivity);
    cbn [events events_seq]; rewrite evl_events_seq, ?oapp_nil_l, ?oapp_nil_r; reflexivity.
Qed.
