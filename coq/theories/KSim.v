(* C05: the lowering of control flow simulates the reference semantics of the skeletons
   (expr_wrapper = list, if_style = if_expr). *)
From Coq Require Import String Ascii List ZArith Bool Arith Lia.
From OL Require Import Sexp PyAst Namespace Lower KSem KSimBase Names.
From OLGen Require Import Tables.
Import ListNotations.
Open Scope string_scope.
Open Scope list_scope.

Definition cfg0 : config := mkCfg false false false.
Definition L (c : ctx) (p : path) (s : stmt) : res (list expr) := lower_stmt cfg0 c p s.

(* the namespace does not redirect names: module level, or a function without captured / global names *)
Definition transparent (n : nsp) : Prop :=
  (forall comp inn i, get_load_name n comp inn i = inl (Name i)) /\
  (forall v, get_assign n "x" v = inl (NamedExpr "x" v)).     (* the only user name the skeletons store to *)

Lemma global_transparent n : n_kind n = NGlobal -> transparent n.
Proof. intros H. split; intros; unfold get_load_name, get_assign; rewrite H; reflexivity. Qed.

Lemma tr_probe n f k : transparent n -> tr n (probe f k) = inl (probe f k).
Proof. intros [H _]. unfold tr, probe. cbn [transf rmap rbind ret]. rewrite H. reflexivity. Qed.

Lemma lookup_bind_eq e x v : lookup (bind e x v) x = Some v.
Proof. unfold bind. cbn. rewrite String.eqb_refl. reflexivity. Qed.

Lemma lookup_bind_ne e x y v : x <> y -> lookup (bind e x v) y = lookup e y.
Proof. intros H. unfold bind. cbn. apply String.eqb_neq in H. rewrite H. reflexivity. Qed.

(* the name under which the break flag of l lives in the environment: for a `for` loop it is the attribute _break of
   the iterator wrapper, which the semantics keeps under [brk_key] of the wrapper's name *)
Definition Bname (l : loopctx) : ident :=
  match lp_kind l with LWhile => break_name (lp_path l) | LFor => brk_key (it_name (lp_path l)) end.
Definition Iname (l : loopctx) : ident := intr_name (lp_path l).

Definition clear_loop (e : env) (l : loopctx) : Prop :=
  (lp_has_break l = true -> lookup e (Bname l) = Some (VBool false)) /\
  (lp_intr_used l = true -> lookup e (Iname l) = Some (VBool false)).
Definition set_loop (e : env) (l : loopctx) : Prop :=
  lookup e (Bname l) = Some (VBool true) /\
  (lp_intr_used l = true -> lookup e (Iname l) = Some (VBool true)).

Definition Rname (c : ctx) : ident := ret_flag (n_id (c_nsp c)).
Definition RVname (c : ctx) : ident := retv_name (n_id (c_nsp c)).

Definition Rclear (c : ctx) (e : env) : Prop := c_ret_used c = true -> lookup e (Rname c) = Some (VBool false).

Definition Clear (c : ctx) (e : env) : Prop := Forall (clear_loop e) (c_loops c) /\ Rclear c e.

(* what the flags say after a block with outcome o; [e0] is the environment before the block *)
Definition Post (c : ctx) (o : outcome) (e0 e : env) : Prop :=
  match o with
  | ONormal => Clear c e /\ lookup e (RVname c) = lookup e0 (RVname c)
  | OBreak =>
      match c_loops c with
      | l :: tl => set_loop e l /\ Forall (clear_loop e) tl /\ Rclear c e /\ lookup e (RVname c) = lookup e0 (RVname c)
      | [] => False
      end
  | OContinue =>
      match c_loops c with
      | l :: tl =>
          (lp_has_break l = true -> lookup e (Bname l) = Some (VBool false)) /\
          (lp_intr_used l = true -> lookup e (Iname l) = Some (VBool true)) /\
          Forall (clear_loop e) tl /\ Rclear c e /\ lookup e (RVname c) = lookup e0 (RVname c)
      | [] => False
      end
  | OReturn v =>
      Forall (set_loop e) (c_loops c) /\
      (c_ret_used c = true -> lookup e (Rname c) = Some (VBool true)) /\
      match v with
      | Some k => lookup e (RVname c) = Some (VProbe k)
      | None => lookup e (RVname c) = lookup e0 (RVname c)
      end
  end.

Definition tracked (c : ctx) : list ident :=
  flat_map (fun l => [Bname l; Iname l]) (c_loops c) ++ [Rname c; RVname c].

Lemma in_tracked c x : List.In x (tracked c) <->
  (exists l, List.In l (c_loops c) /\ (x = Bname l \/ x = Iname l)) \/ x = Rname c \/ x = RVname c.
Proof.
  unfold tracked. rewrite in_app_iff, in_flat_map. cbn [List.In]. split.
  - intros [[l [Hl [H|[H|[]]]]]|[H|[H|[]]]]; eauto 6.
  - intros [[l [Hl [H|H]]]|[H|H]]; eauto 7.
Qed.

Lemma tracked_loop c l : List.In l (c_loops c) -> List.In (Bname l) (tracked c) /\ List.In (Iname l) (tracked c).
Proof. intros Hl. split; apply in_tracked; eauto. Qed.

Lemma tracked_R c : List.In (Rname c) (tracked c).
Proof. apply in_tracked. auto. Qed.

Lemma tracked_RV c : List.In (RVname c) (tracked c).
Proof. apply in_tracked. auto. Qed.

Definition Frame (c : ctx) (e e' : env) : Prop := forall x, List.In x (tracked c) -> lookup e' x = lookup e x.

Lemma bind_fresh c e x v : ~ List.In x (tracked c) -> forall y, List.In y (tracked c) -> lookup (bind e x v) y = lookup e y.
Proof. intros Hf y Hy. apply lookup_bind_ne. intros ->. contradiction. Qed.

Lemma Post_ext c o e0 e e' :
  (forall x, List.In x (tracked c) -> lookup e' x = lookup e x) -> Post c o e0 e -> Post c o e0 e'.
Proof.
  intros H.
  (* what is said of one loop reads its two names only *)
  assert (HL : forall l, List.In l (c_loops c) ->
            (clear_loop e l -> clear_loop e' l) /\ (set_loop e l -> set_loop e' l) /\
            lookup e' (Bname l) = lookup e (Bname l) /\ lookup e' (Iname l) = lookup e (Iname l)).
  { intros l Hl. destruct (tracked_loop c l Hl) as [HB HI]. unfold clear_loop, set_loop. rewrite (H _ HB), (H _ HI). auto. }
  assert (HF : forall (P : env -> loopctx -> Prop) ls,
            (forall l, List.In l ls -> P e l -> P e' l) -> Forall (P e) ls -> Forall (P e') ls).
  { intros P ls HP HF. rewrite Forall_forall in *. auto. }
  unfold Post, Clear, Rclear. rewrite (H _ (tracked_R c)), (H _ (tracked_RV c)).
  destruct o.
  - (* ONormal *) intros [[A B] C]. refine (conj (conj (HF clear_loop _ _ A) B) C). intros l Hl. apply HL, Hl.
  - (* OBreak *) destruct (c_loops c) as [|l tl]; [auto|]. intros [A [B C]].
    refine (conj (proj1 (proj2 (HL l (or_introl eq_refl))) A) (conj (HF clear_loop _ _ B) C)).
    intros l0 Hl. apply HL. right. exact Hl.
  - (* OContinue *) destruct (c_loops c) as [|l tl]; [auto|]. destruct (HL l (or_introl eq_refl)) as [_ [_ [-> ->]]]. intros [A [B [C D]]].
    refine (conj A (conj B (conj (HF clear_loop _ _ C) D))). intros l0 Hl. apply HL. right. exact Hl.
  - (* OReturn *) intros [A B]. refine (conj (HF set_loop _ _ A) B). intros l Hl. apply HL, Hl.
Qed.

Lemma Clear_frame c e e' : Frame c e e' -> Clear c e -> Clear c e'.
Proof. intros H HC. exact (proj1 (Post_ext c ONormal e e e' H (conj HC eq_refl))). Qed.

Lemma Post_rebase c o e0 e1 e : lookup e1 (RVname c) = lookup e0 (RVname c) -> Post c o e1 e -> Post c o e0 e.
Proof.
  intros H. unfold Post. rewrite H. destruct o; [auto| | |destruct v; auto]; destruct (c_loops c); auto.
Qed.

(* from a statement at p outwards through the loops around it the paths get strictly shorter: so a name made at p is
   none of the names of those loops ([fresh_ol], [fresh_brk]) *)
Fixpoint Nest (p : path) (ls : list loopctx) : Prop :=
  match ls with
  | [] => True
  | l :: tl => length (lp_path l) < length p /\ Nest (lp_path l) tl
  end.

Lemma Nest_longer p q ls : length p <= length q -> Nest p ls -> Nest q ls.
Proof. destruct ls as [|l tl]; cbn; [auto|]. intros H [A B]. split; [lia|exact B]. Qed.

Lemma Nest_in p ls l : Nest p ls -> List.In l ls -> length (lp_path l) < length p.
Proof.
  revert p. induction ls as [|l0 tl IH]; intros p HN Hl; [destruct Hl|].
  destruct HN as [A B], Hl as [<-|Hl]; [exact A|]. specialize (IH _ B Hl). lia.
Qed.

Lemma ol_path_ne k1 k2 p q :
  String.eqb k1 k2 || diverge (k1 ++ "_") (k2 ++ "_") = true -> length p <> length q ->
  ol k1 (path_str p) <> ol k2 (path_str q).
Proof.
  intros H Hl. destruct (String.eqb_spec k1 k2) as [->|_].
  - intros E. apply ol_inj_same, path_str_inj in E. subst. apply Hl. reflexivity.
  - apply ol_kind_ne. exact H.
Qed.

(* the kinds of names bound for a statement: each is "break" or "interrupt" or visibly neither, and visibly none of
   the per-function kinds "ret", "retv" *)
Definition stmt_kind (k : string) : bool :=
  (String.eqb k "break" || diverge (k ++ "_") "break_") && (String.eqb k "interrupt" || diverge (k ++ "_") "interrupt_") &&
  diverge (k ++ "_") "ret_" && diverge (k ++ "_") "retv_".

Lemma fresh_ol c p k : Nest p (c_loops c) -> stmt_kind k = true -> ~ List.In (ol k (path_str p)) (tracked c).
Proof.
  intros HN Hk Hin. unfold stmt_kind in Hk. apply andb_prop in Hk as [Hk Kv]. apply andb_prop in Hk as [Hk Kr]. apply andb_prop in Hk as [Kb Ki].
  apply in_tracked in Hin. destruct Hin as [[l [Hl Hx]]|[Hx|Hx]].
  - apply (Nest_in _ _ _ HN) in Hl. destruct Hx as [Hx|Hx]; revert Hx; unfold Bname; [destruct (lp_kind l)|].
    + apply ol_path_ne; [exact Kb|lia].
    + apply not_eq_sym, brk_key_ne_ol.
    + apply ol_path_ne; [exact Ki|lia].
  - revert Hx. apply ol_kind_ne. exact Kr.
  - revert Hx. apply ol_kind_ne. exact Kv.
Qed.

Lemma fresh_brk c p : Nest p (c_loops c) -> ~ List.In (brk_key (it_name p)) (tracked c).
Proof.
  intros HN Hin. apply in_tracked in Hin. destruct Hin as [[l [Hl Hx]]|[Hx|Hx]]; try (revert Hx; apply brk_key_ne_ol).
  apply (Nest_in _ _ _ HN) in Hl. destruct Hx as [Hx|Hx]; revert Hx; unfold Bname; [destruct (lp_kind l)|]; try apply brk_key_ne_ol.
  intros Hx. apply brk_key_inj, ol_inj_same, path_str_inj in Hx. subst. lia.
Qed.

Lemma x_ne_ol k s : "x" <> ol k s. Proof. unfold ol. cbn. discriminate. Qed.

Lemma x_ne_brk a : "x" <> brk_key a. Proof. unfold brk_key. discriminate. Qed.

Lemma fresh_x c : ~ List.In "x" (tracked c).
Proof.
  intros Hin. apply in_tracked in Hin. destruct Hin as [[l [_ [Hx|Hx]]]|[Hx|Hx]]; revert Hx; try apply x_ne_ol.
  unfold Bname. destruct (lp_kind l); [apply x_ne_ol|apply x_ne_brk].
Qed.

Lemma Bname_Iname_ne l : Bname l <> Iname l.
Proof. unfold Bname, Iname. destruct (lp_kind l); [apply ol_kind_ne; reflexivity|apply brk_key_ne_ol]. Qed.

(* break and continue stand inside a loop (il), return inside a function (ifn) *)
Fixpoint wf_sk (il ifn : bool) (s : sk) : bool :=
  match s with
  | KBreak | KContinue => il
  | KReturn _ => ifn
  | KIf _ b o => forallb (wf_sk il ifn) b && forallb (wf_sk il ifn) o
  | KWhile _ b o | KFor _ b o => forallb (wf_sk true ifn) b && forallb (wf_sk il ifn) o
  | _ => true
  end.
Definition wf_block (il ifn : bool) (b : list sk) : bool := forallb (wf_sk il ifn) b.

Lemma has_ret_mi_block b : ex_live has_ret b = true -> ex_live mi_loop b = true.
Proof. apply ex_live_all, has_ret_mi. Qed.

Definition loop_x (lk : loopkind) (k : Z) (b el : list sk) : smode :=
  match lk with LWhile => XWhile k b el | LFor => XFor k b el end.
Definition loop_event (lk : loopkind) (k : Z) (bit : bool) : event :=
  match lk with LWhile => ECond k bit | LFor => ENext k bit end.

(* what the outcome of its body means to a loop: another round, or the end of the loop with an outcome of its own *)
Definition after_body (ob : outcome) : option outcome :=
  match ob with ONormal | OContinue => None | OBreak => Some ONormal | OReturn v => Some (OReturn v) end.

(* which structural predicate of the lowering answers for an outcome *)
Definition permits (o : outcome) : stmt -> bool :=
  match o with
  | ONormal => fun s => negb (is_interrupt s)
  | OBreak => brk_loop
  | OContinue => mi_loop
  | OReturn _ => has_ret
  end.
(* a loop hands on a return from its body or its else clause; a break or continue of the body ends or continues that
   loop itself, so the loop ends with one only out of its else clause *)
Definition allows (o : outcome) (m : smode) : bool :=
  match m with
  | XBlock b => ex_live (permits o) (map embed b)
  | XWhile _ b el | XFor _ b el =>
      match o with
      | OReturn _ => has_ret_block (map embed b) || has_ret_block (map embed el)
      | _ => ex_live (permits o) (map embed el)
      end
  end.
Definition wf_mode (il ifn : bool) (m : smode) : bool :=
  match m with
  | XBlock b => wf_block il ifn b
  | XWhile _ b el | XFor _ b el => wf_block true ifn b && wf_block il ifn el
  end.

(* an abnormal outcome is announced by the structural predicates, and a return only leaves well-formed code of a function *)
Definition outcome_ok (o : outcome) (m : smode) : Prop :=
  (o = ONormal \/ allows o m = true) /\ (forall v il ifn, o = OReturn v -> wf_mode il ifn m = true -> ifn = true).

Section Outcomes.
  Variable orc : nat -> bool.

  (* what the first statement of a block contributes to [exec] of the block: [exec_block_cons] *)
  Definition exec_stmt (f : nat) (st : sk) (s : sst) : option (outcome * sst) :=
    match st with
    | KMark k => Some (ONormal, xemit s (EMark k))
    | KPass => Some (ONormal, s)
    | KBreak => Some (OBreak, s)
    | KContinue => Some (OContinue, s)
    | KReturn None => Some (OReturn None, s)
    | KReturn (Some k) => Some (OReturn (Some k), xemit s (EVal k))
    | KIf c b o => exec orc f (XBlock (if orc (x_pos s) then b else o)) (xemit (xtick s) (ECond c (orc (x_pos s))))
    | KWhile c b o => exec orc f (XWhile c b o) s
    | KFor k b o => exec orc f (XFor k b o) (xemit (xemit s (EIterable k)) (EIter k))
    end.

  Lemma exec_block_cons f st rest s :
    exec orc (S f) (XBlock (st :: rest)) s = cont_with (fun s1 => exec orc f (XBlock rest) s1) (exec_stmt f st s).
  Proof. destruct st as [| | | |[|]| | |]; reflexivity. Qed.

  Lemma exec_loop lk f k b el s :
    exec orc (S f) (loop_x lk k b el) s =
    let s1 := xemit (xtick s) (loop_event lk k (orc (x_pos s))) in
    if orc (x_pos s) then
      match exec orc f (XBlock b) s1 with
      | Some (ob, s2) => match after_body ob with None => exec orc f (loop_x lk k b el) s2 | Some o => Some (o, s2) end
      | None => None
      end
    else exec orc f (XBlock el) s1.
  Proof.
    destruct lk; cbn [exec loop_x loop_event]; cbv zeta; destruct (orc (x_pos s)); try reflexivity;
      destruct (exec _ _ _ _) as [[[| | |v] s2]|]; reflexivity.
  Qed.

  Section Stmt.
    Variable f : nat.
    Hypothesis IH : forall m s o s', exec orc f m s = Some (o, s') -> outcome_ok o m.

    Lemma stmt_outcome st s o s' : exec_stmt f st s = Some (o, s') ->
      permits o (embed st) = true /\ (forall v il ifn, o = OReturn v -> wf_sk il ifn st = true -> ifn = true).
    Proof.
      intros E. destruct st as [k| | | |[k|]|c b el|c b el|k b el]; cbn [exec_stmt] in E.
      1-6: injection E as <- <-; split; [reflexivity|intros v il ifn Ev Hw; try discriminate Ev; exact Hw].
      all: destruct (IH _ _ _ _ E) as [A W]; cbn [embed allows wf_mode wf_sk] in *; split; try exact W.
      (* loops: a break or continue comes out of the else clause, a return out of either part *)
      3-4: destruct o; [reflexivity|..]; destruct A as [A|A]; try discriminate A;
        cbn [permits has_ret brk_loop mi_loop] in *; [rewrite A; apply orb_true_r|rewrite A; apply orb_true_r|exact A].
      (* if: the outcome of the branch taken *)
      - destruct A as [->|A]; [reflexivity|]. destruct o; [reflexivity|..]; cbn [permits has_ret brk_loop mi_loop] in *;
          destruct (orc (x_pos s)); rewrite A; auto using orb_true_r.
      - intros v il ifn Ev Hw. apply andb_true_iff in Hw.
        destruct (orc (x_pos s)); [exact (W v il ifn Ev (proj1 Hw))|exact (W v il ifn Ev (proj2 Hw))].
    Qed.

    Lemma loop_outcome lk k b el s o s' : exec orc (S f) (loop_x lk k b el) s = Some (o, s') -> outcome_ok o (loop_x lk k b el).
    Proof.
      intros E.
      (* allows and wf_mode read a for loop as they read a while loop *)
      enough (G : outcome_ok o (XWhile k b el)) by (destruct lk; exact G).
      rewrite exec_loop in E. cbv zeta in E. unfold outcome_ok. cbn [allows wf_mode]. destruct (orc (x_pos s)).
      - (* a round of the body *)
        destruct (exec orc f (XBlock b) _) as [[ob s2]|] eqn:Eb; [|discriminate].
        destruct ob; cbn [after_body] in E; try (destruct lk; exact (IH _ _ _ _ E)); injection E as <- <-.
        + (* OBreak *) split; [left; reflexivity|discriminate].
        + (* OReturn *) destruct (IH _ _ _ _ Eb) as [[A|A] W]; [discriminate|]. cbn [allows permits] in A. split.
          * right. unfold has_ret_block. rewrite A. reflexivity.
          * intros v0 il ifn _ Hw. apply andb_true_iff in Hw. exact (W v true ifn eq_refl (proj1 Hw)).
      - (* the else clause *)
        destruct (IH _ _ _ _ E) as [A W]. cbn [allows wf_mode] in A, W. split.
        + destruct A as [A|A]; [left; exact A|right]. destruct o; try exact A. unfold has_ret_block. cbn [permits] in A. rewrite A. apply orb_true_r.
        + intros v il ifn Ev Hw. apply andb_true_iff in Hw. exact (W v il ifn Ev (proj2 Hw)).
    Qed.

    Lemma block_outcome b s o s' : exec orc (S f) (XBlock b) s = Some (o, s') -> outcome_ok o (XBlock b).
    Proof.
      intros H. destruct b as [|st rest].
      - injection H as <- <-. split; [left; reflexivity|discriminate].
      - rewrite exec_block_cons in H. destruct (exec_stmt f st s) as [[o1 s1]|] eqn:E1; [|discriminate].
        destruct (stmt_outcome st s o1 s1 E1) as [P1 W1].
        unfold outcome_ok, wf_block. cbn [allows map wf_mode forallb]. rewrite ex_live_cons.
        destruct o1; cbn [cont_with] in H;
          try (injection H as <- <-; split; [right; rewrite P1; reflexivity|
               intros v0 il ifn Ev Hw; apply andb_true_iff in Hw; exact (W1 v0 il ifn Ev (proj1 Hw))]).
        (* the statement completed: the rest of the block decides *)
        destruct (IH _ _ _ _ H) as [A W]. cbn [permits] in P1. apply negb_true_iff in P1. rewrite P1. split.
        + destruct A as [A|A]; [left; exact A|right]. cbn [allows] in A. rewrite A. apply orb_true_r.
        + intros v il ifn Ev Hw. apply andb_true_iff in Hw. exact (W v il ifn Ev (proj2 Hw)).
    Qed.
  End Stmt.

  Theorem exec_outcome : forall f m s o s', exec orc f m s = Some (o, s') -> outcome_ok o m.
  Proof.
    induction f as [|f IH]; intros m s o s' H; [discriminate|]. destruct m as [b|c b el|k b el].
    - exact (block_outcome f IH b s o s' H).
    - exact (loop_outcome f IH LWhile c b el s o s' H).
    - exact (loop_outcome f IH LFor k b el s o s' H).
  Qed.

  Lemma body_stops f b s ob s2 o : exec orc f (XBlock b) s = Some (ob, s2) -> after_body ob = Some o ->
    brk_block (map embed b) = true.
  Proof.
    intros E Ho. destruct (exec_outcome _ _ _ _ _ E) as [[->|A] _]; [discriminate|]. cbn [allows] in A.
    destruct ob; try discriminate; [exact A|exact (ex_live_all _ _ _ has_ret_brk A)].
  Qed.
End Outcomes.

Definition il (c : ctx) : bool := match c_loops c with [] => false | _ => true end.
Definition ifn (c : ctx) : bool := match n_kind (c_nsp c) with NFunction => true | _ => false end.
(* the context's record of whether the flag its guards test (interrupt flag of the innermost loop, else the return
   flag) is in use; [Covers c b]: it is, if b has a guard.  Only then is the flag initialised and set. *)
Definition flag_used (c : ctx) : bool :=
  match c_loops c with l :: _ => lp_intr_used l | [] => c_ret_used c end.
Definition Covers (c : ctx) (b : list stmt) : Prop :=
  uses_flag (fst (guard_of c)) b = true -> flag_used c = true.

Lemma Covers_tail c s r : is_interrupt s = false -> Covers c (s :: r) -> Covers c r.
Proof.
  unfold Covers, uses_flag. intros Hi H Hr. apply H. apply orb_true_iff in Hr. apply orb_true_iff.
  destruct Hr as [Hr|Hr].
  - left. destruct r as [|s2 r2]; [discriminate|]. rewrite has_boundary_cons2, Hi, Hr. apply orb_true_r.
  - right. rewrite ex_live_cons, Hi, Hr. apply orb_true_r.
Qed.

Lemma Covers_boundary c s s2 r : is_interrupt s = false -> fst (guard_of c) s = true -> Covers c (s :: s2 :: r) -> flag_used c = true.
Proof.
  unfold Covers, uses_flag. intros Hi Hb H. apply H. apply orb_true_iff. left. rewrite has_boundary_cons2, Hi, Hb. reflexivity.
Qed.

(* a block inside statement s whose guards count as guards of s *)
Lemma Covers_sub c s r b :
  (uses_flag (fst (guard_of c)) b = true -> uses_flag_stmt (fst (guard_of c)) s = true) -> Covers c (s :: r) -> Covers c b.
Proof.
  unfold Covers. intros Hs H Hb. apply H. unfold uses_flag. rewrite ex_live_cons, (Hs Hb). apply orb_true_r.
Qed.

Lemma guard_global g : n_kind g = NGlobal -> guard_of (mkCtx g [] false) = ((fun _ => false), None).
Proof. intros H. unfold guard_of. cbn [c_loops c_nsp]. rewrite H. reflexivity. Qed.

(* at module level no statement opens a guard *)
Lemma Covers_global g b : n_kind g = NGlobal -> Covers (mkCtx g [] false) b.
Proof. intros Hk. unfold Covers. rewrite (guard_global g Hk), uses_flag_false. discriminate. Qed.

(* [rs unless rd]: the conditional that guards the rest of a block or an else clause *)
Section Unless.
  Variable orc : nat -> bool.

  Lemma Ev_unless_skip s rd x : Ev orc (MExpr rd) s (VBool true, s) ->
    EvSeq orc [IfExp (UnaryOp Not rd) x ellipsis] s s.
  Proof. intros H. eapply EvSeq_one, Ev_if; [apply Ev_not; exact H|apply Ev_ellipsis]. Qed.

  Lemma Ev_unless_run s rd rs s' : Ev orc (MExpr rd) s (VBool false, s) -> EvSeq orc rs s s' ->
    EvSeq orc [IfExp (UnaryOp Not rd) (wrap cfg0 rs) ellipsis] s s'.
  Proof.
    intros H Hr. destruct (Ev_wrap orc cfg0 rs s s' eq_refl Hr) as [v Hv].
    eapply EvSeq_one, Ev_if; [apply Ev_not; exact H|exact Hv].
  Qed.
End Unless.

(* lists of flag stores: the bodies of lowered break, continue and return *)
Section Setters.
  Variable orc : nat -> bool.

  (* an expression that stores True under one name and does nothing else *)
  Inductive Setter : expr -> ident -> Prop :=
  | Setter_break l : Setter (set_break l) (Bname l)
  | Setter_walrus x : Setter (NamedExpr x ctrue) x.

  Lemma Setter_ev e x s : Setter e x -> exists v, Ev orc (MExpr e) s (v, setv s x (VBool true)).
  Proof.
    intros [l|y]; [|eexists; apply Ev_named; [reflexivity|apply Ev_true]].
    unfold set_break, Bname. destruct (lp_kind l); eexists; [apply Ev_named; [reflexivity|apply Ev_true]|apply Ev_setattr_true].
  Qed.

  Lemma setters_ev : forall es xs, Forall2 Setter es xs -> forall s,
    exists s', EvSeq orc es s s' /\ s_tr s' = s_tr s /\ s_pos s' = s_pos s /\
      (forall x, List.In x xs -> lookup (s_env s') x = Some (VBool true)) /\
      (forall x, ~ List.In x xs -> lookup (s_env s') x = lookup (s_env s) x).
  Proof.
    induction 1 as [|e x es xs He Hes IH]; intros s.
    - exists s. split; [apply ES_nil|]. repeat split. intros x [].
    - destruct (Setter_ev e x s He) as [v Hv]. destruct (IH (setv s x (VBool true))) as [s' [A [B [C [D E]]]]].
      exists s'. split; [econstructor; eauto|]. cbn [setv s_tr s_pos s_env] in *. repeat split; [exact B|exact C| |].
      + intros y [<-|Hy]; [|apply D; exact Hy].
        destruct (in_dec string_dec x xs) as [Hi|Hn]; [apply D; exact Hi|].
        rewrite (E x Hn). apply lookup_bind_eq.
      + intros y Hy. rewrite E by (intros Hi; apply Hy; right; exact Hi).
        apply lookup_bind_ne. intros ->. apply Hy. left. reflexivity.
  Qed.

  Definition intr_names (l : loopctx) : list ident := if lp_intr_used l then [Iname l] else [].

  Lemma setter_intr l : Forall2 Setter (if lp_intr_used l then [NamedExpr (intr_name (lp_path l)) ctrue] else []) (intr_names l).
  Proof. unfold intr_names. destruct (lp_intr_used l); repeat constructor. Qed.

  Lemma intr_names_in l : lp_intr_used l = true -> List.In (Iname l) (intr_names l).
  Proof. unfold intr_names. intros ->. left. reflexivity. Qed.

  Lemma intr_names_sub l : incl (intr_names l) [Iname l].
  Proof. unfold intr_names. destruct (lp_intr_used l); [apply incl_refl|intros x []]. Qed.
End Setters.

Lemma tail_kept c l tl xs e e' :
  c_loops c = l :: tl -> Nest (lp_path l) tl -> Clear c e -> incl xs [Bname l; Iname l] ->
  (forall x, ~ List.In x xs -> lookup e' x = lookup e x) ->
  Forall (clear_loop e') tl /\ Rclear c e' /\ lookup e' (RVname c) = lookup e (RVname c).
Proof.
  intros E HN [A B] Hxs Hkeep. rewrite E in A. inversion A as [|? ? _ Atl]; subst.
  set (c' := mkCtx (c_nsp c) tl (c_ret_used c)).
  assert (F : Frame c' e e').
  { intros x Hx. apply Hkeep. intros Hin. apply Hxs in Hin. destruct Hin as [<-|[<-|[]]]; revert Hx.
    - unfold Bname. destruct (lp_kind l); [exact (fresh_ol c' _ "break" HN eq_refl)|exact (fresh_brk c' _ HN)].
    - exact (fresh_ol c' _ "interrupt" HN eq_refl). }
  destruct (Clear_frame c' e e' F (conj Atl B)) as [K1 K2].
  exact (conj K1 (conj K2 (F _ (tracked_RV c')))).
Qed.

Lemma RVname_ne_loop c l : RVname c <> Bname l /\ RVname c <> Iname l.
Proof.
  unfold RVname, retv_name, Bname, Iname. split; [destruct (lp_kind l)|]; try (apply ol_kind_ne; reflexivity). apply not_eq_sym, brk_key_ne_ol.
Qed.

Lemma guard_of_loops c l tl : c_loops c = l :: tl -> guard_of c = (mi_loop, Some (Iname l)).
Proof. intros E. unfold guard_of. rewrite E. reflexivity. Qed.

Lemma flag_after c o1 e0 e1 bumps flag s s2 r :
  guard_of c = (bumps, Some flag) -> bumps s = true -> is_interrupt s = false -> Covers c (s :: s2 :: r) ->
  Post c o1 e0 e1 -> lookup e1 flag = Some (VBool (match o1 with ONormal => false | _ => true end)).
Proof.
  intros HG Hb Hk HC HP.
  assert (HU : flag_used c = true) by (apply (Covers_boundary c s s2 r Hk); [rewrite HG; exact Hb|exact HC]).
  unfold flag_used in HU. destruct (c_loops c) as [|l tl] eqn:E.
  - unfold guard_of in HG. rewrite E in HG. destruct (n_kind (c_nsp c)); try discriminate. injection HG as _ <-.
    destruct o1; cbn [Post] in HP; rewrite ?E in HP; try contradiction.
    + (* ONormal *) destruct HP as [[_ R] _]. exact (R HU).
    + (* OReturn *) destruct HP as [_ [R _]]. exact (R HU).
  - rewrite (guard_of_loops c l tl E) in HG. injection HG as _ <-.
    destruct o1; cbn [Post] in HP; rewrite ?E in HP.
    + (* ONormal *) destruct HP as [[A _] _]. rewrite E in A. inversion A as [|? ? [_ I] _]. exact (I HU).
    + (* OBreak *) destruct HP as [[_ I] _]. exact (I HU).
    + (* OContinue *) destruct HP as [_ [I _]]. exact (I HU).
    + (* OReturn *) destruct HP as [A _]. inversion A as [|? ? [_ I] _]. exact (I HU).
Qed.

Lemma guard_bumps c o1 e0 e1 s :
  o1 <> ONormal -> permits o1 s = true -> Post c o1 e0 e1 -> (forall v, o1 = OReturn v -> ifn c = true) ->
  exists bumps flag, guard_of c = (bumps, Some flag) /\ bumps s = true.
Proof.
  intros Hne HP HPost Hret. unfold guard_of, ifn in *. destruct (c_loops c) as [|l tl] eqn:E.
  - destruct o1; cbn [Post] in HPost; rewrite ?E in HPost; try contradiction.
    specialize (Hret v eq_refl). destruct (n_kind (c_nsp c)); try discriminate. eexists _, _. split; [reflexivity|exact HP].
  - eexists _, _. split; [reflexivity|]. destruct o1; [contradiction|apply brk_mi, HP|exact HP|apply has_ret_mi, HP].
Qed.

(* an optional store, as emitted for a flag that is reset only when it is used *)
Definition setv_if (u : bool) (σ : st) (x : ident) (v : val) : st := if u then setv σ x v else σ.

Lemma setv_if_spec u σ x v :
  s_tr (setv_if u σ x v) = s_tr σ /\ s_pos (setv_if u σ x v) = s_pos σ /\
  (u = true -> lookup (s_env (setv_if u σ x v)) x = Some v) /\
  (forall y, y <> x -> lookup (s_env (setv_if u σ x v)) y = lookup (s_env σ) y).
Proof.
  destruct u; cbn [setv_if setv s_tr s_pos s_env]; repeat split; try discriminate; intros.
  - apply lookup_bind_eq.
  - apply lookup_bind_ne. congruence.
Qed.

(* the lowered while statement at q with body b: the context of its body, what a round evaluates, its test, its else *)
Definition w_me (q : path) (b : list sk) : loopctx :=
  mkLoop LWhile q (uses_flag mi_loop (map embed b)) (brk_block (map embed b)).
Definition w_cin (c : ctx) (q : path) (b : list sk) : ctx := mkCtx (c_nsp c) (w_me q b :: c_loops c) (c_ret_used c).
Definition w_body (q : path) (b : list sk) (b' : list expr) : list expr :=
  (if uses_flag mi_loop (map embed b) then [NamedExpr (intr_name q) cfalse] else []) ++ b'.
Definition w_test (q : path) (b : list sk) (k : Z) : expr :=
  if brk_block (map embed b) then BoolOp And [UnaryOp Not (Name (break_name q)); probe "c" k] else probe "c" k.
Definition w_else (q : path) (b : list sk) (el' : list expr) : list expr :=
  match el' with
  | [] => []
  | _ => [if brk_block (map embed b) then IfExp (UnaryOp Not (Name (break_name q))) (wrap cfg0 el') ellipsis else wrap cfg0 el']
  end.

(* the same for a lowered for statement; [ftmp] is the comprehension variable, [f_mode] the iteration over the plain
   or the wrapped iterable *)
Definition f_me (q : path) (b : list sk) : loopctx :=
  mkLoop LFor q (uses_flag mi_loop (map embed b)) (brk_block (map embed b)).
Definition f_cin (c : ctx) (q : path) (b : list sk) : ctx := mkCtx (c_nsp c) (f_me q b :: c_loops c) (c_ret_used c).
Definition ftmp (q : path) : ident := ol "for" (path_str q).
Definition f_body (q : path) (b : list sk) (b' : list expr) : list expr :=
  (if uses_flag mi_loop (map embed b) then [NamedExpr (intr_name q) cfalse] else []) ++ [NamedExpr "x" (Name (ftmp q))] ++ b'.
Definition f_mode (q : path) (b : list sk) (k : Z) (body : expr) : mode :=
  if brk_block (map embed b) then MForWrap (it_name q) k (ftmp q) body else MForPlain k (ftmp q) body.
Definition f_else (q : path) (b : list sk) (el' : list expr) : list expr :=
  match el' with
  | [] => []
  | _ => [if brk_block (map embed b)
          then IfExp (UnaryOp Not (Attribute (Name (it_name q)) "_break")) (wrap cfg0 el') ellipsis
          else wrap cfg0 el']
  end.

(* the two kinds of loop as one: the definitions above are these at LWhile and at LFor *)
Definition loop_me (lk : loopkind) (q : path) (b : list sk) : loopctx :=
  mkLoop lk q (uses_flag mi_loop (map embed b)) (brk_block (map embed b)).
Definition loop_cin (lk : loopkind) (c : ctx) (q : path) (b : list sk) : ctx :=
  mkCtx (c_nsp c) (loop_me lk q b :: c_loops c) (c_ret_used c).
Definition loop_body (lk : loopkind) (q : path) (b : list sk) (b' : list expr) : list expr :=
  match lk with LWhile => w_body q b b' | LFor => f_body q b b' end.
Definition loop_run (lk : loopkind) (q : path) (b : list sk) (k : Z) (body : expr) : mode :=
  match lk with LWhile => MWhile (w_test q b k) body | LFor => f_mode q b k body end.
Definition brk_read (lk : loopkind) (q : path) : expr :=
  match lk with LWhile => Name (break_name q) | LFor => Attribute (Name (it_name q)) "_break" end.
Definition loop_else (lk : loopkind) (q : path) (b : list sk) (el' : list expr) : list expr :=
  match el' with
  | [] => []
  | _ => [if brk_block (map embed b) then IfExp (UnaryOp Not (brk_read lk q)) (wrap cfg0 el') ellipsis else wrap cfg0 el']
  end.

(* the context of a loop body records in lp_intr_used whether that body uses the interrupt flag, so it covers the body
   by construction *)
Lemma Covers_loop_body lk c q b : Covers (loop_cin lk c q b) (map embed b).
Proof. exact (fun H => H). Qed.

(* what a round of the body evaluates before the lowered statements of the body *)
Definition round_prefix (lk : loopkind) (q : path) (b : list sk) : list expr :=
  (if uses_flag mi_loop (map embed b) then [NamedExpr (intr_name q) cfalse] else []) ++
  match lk with LWhile => [] | LFor => [NamedExpr "x" (Name (ftmp q))] end.

Lemma loop_body_eq lk q b b' : loop_body lk q b b' = round_prefix lk q b ++ b'.
Proof. unfold round_prefix. rewrite <- app_assoc. destruct lk; reflexivity. Qed.

Lemma Bname_me_ne lk q b : Bname (loop_me lk q b) <> ftmp q /\ Bname (loop_me lk q b) <> intr_name q /\ Bname (loop_me lk q b) <> "x".
Proof.
  destruct lk; cbn [Bname loop_me lp_kind lp_path]; repeat split;
    try (apply ol_kind_ne; reflexivity); try apply brk_key_ne_ol; intros X; symmetry in X; revert X; [apply x_ne_ol|apply x_ne_brk].
Qed.

(* entering the body of the loop at q: what a round evaluates first writes the interrupt flag of the loop, the loop
   variable and its temporary, none of which is a flag of the context or the break flag of the loop *)
Lemma loop_enter lk c q b e e' :
  Nest q (c_loops c) -> Clear c e ->
  (brk_block (map embed b) = true -> lookup e (Bname (loop_me lk q b)) = Some (VBool false)) ->
  (uses_flag mi_loop (map embed b) = true -> lookup e' (intr_name q) = Some (VBool false)) ->
  (forall y, y <> ftmp q -> y <> intr_name q -> y <> "x" -> lookup e' y = lookup e y) ->
  Clear (loop_cin lk c q b) e' /\ lookup e' (RVname c) = lookup e (RVname c).
Proof.
  intros HN HC HB HI Hkeep.
  assert (HF : Frame c e e').
  { intros y Hy. apply Hkeep; intros ->; revert Hy;
      [exact (fresh_ol c q "for" HN eq_refl)|exact (fresh_ol c q "interrupt" HN eq_refl)|apply fresh_x]. }
  destruct (Clear_frame c e e' HF HC) as [A B]. split; [|exact (HF _ (tracked_RV c))].
  split; [constructor; [split; [|exact HI]|exact A]|exact B].
  intros Hb. rewrite Hkeep by apply Bname_me_ne. exact (HB Hb).
Qed.

(* what the flags say to the loop at q when its body has ended with outcome ob: the loop goes on with its flags clear,
   or it is over, its break flag set *)
Definition round_end (lk : loopkind) (c : ctx) (q : path) (b : list sk) (ob : outcome) (e0 e2 : env) : Prop :=
  match after_body ob with
  | None =>
      Clear c e2 /\ (brk_block (map embed b) = true -> lookup e2 (Bname (loop_me lk q b)) = Some (VBool false)) /\
      lookup e2 (RVname c) = lookup e0 (RVname c)
  | Some o => lookup e2 (Bname (loop_me lk q b)) = Some (VBool true) /\ Post c o e0 e2
  end.

Lemma loop_exit lk c q b ob e0 e2 : Post (loop_cin lk c q b) ob e0 e2 -> round_end lk c q b ob e0 e2.
Proof.
  unfold round_end. destruct ob; cbn [Post loop_cin c_loops after_body].
  - (* ONormal *) intros [[A R] V]. inversion A as [|? ? [Cb _] Ctl]. exact (conj (conj Ctl R) (conj Cb V)).
  - (* OBreak *) intros [[Sb _] [Ctl [R V]]]. exact (conj Sb (conj (conj Ctl R) V)).
  - (* OContinue *) intros [Cb [_ [Ctl [R V]]]]. exact (conj (conj Ctl R) (conj Cb V)).
  - (* OReturn *) intros [A [R V]]. inversion A as [|? ? [Sb _] Stl]. exact (conj Sb (conj Stl (conj R V))).
Qed.

(* the lowered for statement: its short form is the general form of a loop without break, interrupt flag and else clause *)
Lemma for_lowered c q k b el es : transparent (c_nsp c) -> L c q (embed (KFor k b el)) = inl es ->
  exists b' el', lower_block cfg0 L (f_cin c q b) q 0 0 (map embed b) = inl b' /\
    lower_block cfg0 L c q 1 0 (map embed el) = inl el' /\
    es = (if brk_block (map embed b) then [NamedExpr (it_name q) (call (Name "__ol_iter_wrapper") [probe "it" k])] else []) ++
         [ListComp (wrap cfg0 (f_body q b b'))
            [(Name (ftmp q), (if brk_block (map embed b) then Name (it_name q) else probe "it" k), [], false)]] ++
         f_else q b el'.
Proof.
  intros HT HL. unfold L in HL. cbn [embed lower_stmt] in HL. fold L in HL.
  apply rbind_inl in HL as (b' & Eb & HL). apply rbind_inl in HL as (el' & Ee & HL).
  exists b', el'. split; [exact Eb|]. split; [exact Ee|].
  cbn [assign_auto] in HL. rewrite (proj2 HT) in HL. cbn [rbind ret] in HL.
  rewrite (tr_probe _ _ _ HT) in HL. cbn [rbind] in HL. fold (ftmp q) in HL.
  destruct (negb (mi_block (map embed b)) && match map embed el with [] => true | _ => false end) eqn:Esimple;
    injection HL as <-; [|reflexivity].
  apply andb_true_iff in Esimple. destruct Esimple as [Hmi Hel]. apply negb_true_iff in Hmi.
  destruct el; [|discriminate]. injection Ee as <-.
  assert (Hno : forall x : bool, (x = true -> mi_block (map embed b) = true) -> x = false).
  { intros [|] Hx; [rewrite (Hx eq_refl) in Hmi; discriminate|reflexivity]. }
  unfold f_body. rewrite (Hno _ (uses_flag_mi _)), (Hno (brk_block (map embed b)) (ex_live_all _ _ _ brk_mi)). reflexivity.
Qed.

(* σ is in step with s: the lowered program has emitted the trace of the reference run and consulted the oracle as often *)
Definition InStep (σ : st) (s : sst) : Prop := s_tr σ = x_tr s /\ s_pos σ = x_pos s.

Lemma InStep_emit σ s ev : InStep σ s -> InStep (emit σ ev) (xemit s ev).
Proof. intros [Ht Hp]. split; cbn; congruence. Qed.

Lemma InStep_tick σ s : InStep σ s -> InStep (tick σ) (xtick s).
Proof. intros [Ht Hp]. split; cbn; congruence. Qed.

Lemma InStep_setv σ s x v : InStep σ s -> InStep (setv σ x v) s.
Proof. exact (fun H => H). Qed.

Lemma InStep_setv_if u σ s x v : InStep σ s -> InStep (setv_if u σ x v) s.
Proof. destruct u; [apply InStep_setv|exact (fun H => H)]. Qed.

Section Sim.
  Variable orc : nat -> bool.

  Definition SimRes (c : ctx) (o : outcome) (s' : sst) (es : list expr) (σ : st) : Prop :=
    exists σ', EvSeq orc es σ σ' /\ s_tr σ' = x_tr s' /\ s_pos σ' = x_pos s' /\ Post c o (s_env σ) (s_env σ').

  (* Nest (0 :: p), of which only the length matters: a loop at q lowers its body as a block at q, so the innermost
     loop of the context of a block at p may have a path as long as p *)
  Definition Pre (c : ctx) (p : path) (b : list sk) (s : sst) (σ : st) : Prop :=
    transparent (c_nsp c) /\ Nest (0 :: p) (c_loops c) /\ wf_block (il c) (ifn c) b = true /\ Covers c (map embed b) /\
    Clear c (s_env σ) /\ s_tr σ = x_tr s /\ s_pos σ = x_pos s.

  Lemma Pre_intro c p b s σ :
    transparent (c_nsp c) -> Nest (0 :: p) (c_loops c) -> wf_block (il c) (ifn c) b = true -> Covers c (map embed b) ->
    Clear c (s_env σ) -> InStep σ s -> Pre c p b s σ.
  Proof. intros HT HN Hwf HC HCl HS. exact (conj HT (conj HN (conj Hwf (conj HC (conj HCl HS))))). Qed.

  Definition SimBlock (f : nat) : Prop :=
    forall b s o s', exec orc f (XBlock b) s = Some (o, s') ->
    forall c p br i es σ, Pre c p b s σ -> lower_block cfg0 L c p br i (map embed b) = inl es -> SimRes c o s' es σ.

  Notation Ev := (Ev orc).
  Notation EvSeq := (EvSeq orc).

  (* [SimBlock] for one statement st, lowered at path q; r, the statements after it in its block, matters to Covers only *)
  Definition SimStmt (f : nat) (st : sk) : Prop :=
    forall s o s', exec_stmt orc f st s = Some (o, s') ->
    forall c q r es σ,
      transparent (c_nsp c) -> Nest q (c_loops c) -> wf_sk (il c) (ifn c) st = true -> Covers c (embed st :: r) ->
      Clear c (s_env σ) -> s_tr σ = x_tr s -> s_pos σ = x_pos s ->
      L c q (embed st) = inl es -> SimRes c o s' es σ.

  Lemma sim_mark f k : SimStmt f (KMark k).
  Proof.
    intros s o s' Hex c q r es σ HT _ _ _ HC Ht Hp HL. injection Hex as <- <-.
    unfold L in HL. cbn [embed lower_stmt] in HL. rewrite (tr_probe _ _ _ HT) in HL. injection HL as <-.
    exists (emit σ (EMark k)). split; [eapply EvSeq_one; apply Ev_mark|].
    cbn [emit s_tr s_pos s_env xemit x_tr x_pos]. split; [rewrite Ht; reflexivity|]. split; [exact Hp|]. split; [exact HC|reflexivity].
  Qed.

  Lemma sim_pass f : SimStmt f KPass.
  Proof.
    intros s o s' Hex c q r es σ _ _ _ _ HC Ht Hp HL. injection Hex as <- <-. injection HL as <-.
    exists σ. split; [eapply EvSeq_one; apply Ev_ellipsis|]. split; [exact Ht|]. split; [exact Hp|]. split; [exact HC|reflexivity].
  Qed.

  Lemma sim_setters c o s pre es xs σ σ1 :
    EvSeq pre σ σ1 -> Forall2 Setter es xs -> s_tr σ1 = x_tr s -> s_pos σ1 = x_pos s ->
    (forall e', (forall x, List.In x xs -> lookup e' x = Some (VBool true)) ->
                (forall x, ~ List.In x xs -> lookup e' x = lookup (s_env σ1) x) -> Post c o (s_env σ) e') ->
    SimRes c o s [EList (pre ++ es)] σ.
  Proof.
    intros Hpre HS Ht Hp HPost. destruct (setters_ev orc es xs HS σ1) as [σ' [A [B [C [D E]]]]].
    exists σ'. split; [eapply EvSeq_one; apply Ev_elist; eapply EvSeq_app; eassumption|].
    split; [congruence|]. split; [congruence|]. apply HPost; assumption.
  Qed.

  Lemma il_loops c q : il c = true -> Nest q (c_loops c) -> exists l tl, c_loops c = l :: tl /\ Nest (lp_path l) tl.
  Proof. unfold il. destruct (c_loops c) as [|l tl]; [discriminate|]. intros _ [_ HN]. eauto. Qed.

  Lemma sim_break f : SimStmt f KBreak.
  Proof.
    intros s o s' Hex c q r es σ _ HN Hwf _ HC Ht Hp HL. injection Hex as <- <-. destruct (il_loops c q Hwf HN) as [l [tl [E HNl]]].
    unfold L in HL. cbn [embed lower_stmt] in HL. rewrite E in HL. injection HL as <-.
    apply (sim_setters c OBreak s [] _ (Bname l :: intr_names l) σ σ (ES_nil orc σ)); [|exact Ht|exact Hp|].
    - constructor; [constructor|apply setter_intr].
    - intros e' Hset Hkeep. cbn [Post]. rewrite E.
      refine (conj (conj (Hset _ (or_introl eq_refl)) (fun U => Hset _ (or_intror (intr_names_in l U)))) _).
      apply (tail_kept c l tl (Bname l :: intr_names l) _ _ E HNl HC); [|exact Hkeep].
      intros x [<-|Hx]; [left; reflexivity|right; exact (intr_names_sub l x Hx)].
  Qed.

  Lemma sim_continue f : SimStmt f KContinue.
  Proof.
    intros s o s' Hex c q r es σ _ HN Hwf _ HC Ht Hp HL. injection Hex as <- <-. destruct (il_loops c q Hwf HN) as [l [tl [E HNl]]].
    unfold L in HL. cbn [embed lower_stmt] in HL. rewrite E in HL. injection HL as <-.
    apply (sim_setters c OContinue s [] _ (intr_names l) σ σ (ES_nil orc σ)); [apply setter_intr|exact Ht|exact Hp|].
    intros e' Hset Hkeep. cbn [Post]. rewrite E.
    pose proof (incl_tl (Bname l) (intr_names_sub l)) as Hsub.
    refine (conj _ (conj (fun U => Hset _ (intr_names_in l U)) (tail_kept c l tl _ _ _ E HNl HC Hsub Hkeep))).
    (* the break flag stays clear: its name is not the name of the interrupt flag *)
    intros Hb. rewrite Hkeep.
    - destruct HC as [A _]. rewrite E in A. inversion A as [|? ? [Cb _] _]. exact (Cb Hb).
    - intros Hin. destruct (intr_names_sub l _ Hin) as [X|[]]. exact (Bname_Iname_ne l (eq_sym X)).
  Qed.

  (* the stores of a lowered return, and the names they set *)
  Definition ret_setters (c : ctx) : list expr :=
    map set_break (rev (c_loops c)) ++
    flat_map (fun l => if lp_intr_used l then [NamedExpr (intr_name (lp_path l)) ctrue] else []) (c_loops c) ++
    (if c_ret_used c then [NamedExpr (ret_flag (n_id (c_nsp c))) ctrue] else []).
  Definition ret_names (c : ctx) : list ident :=
    map Bname (rev (c_loops c)) ++ flat_map intr_names (c_loops c) ++ (if c_ret_used c then [Rname c] else []).

  Lemma ret_setters_names c : Forall2 Setter (ret_setters c) (ret_names c).
  Proof.
    apply Forall2_app; [|apply Forall2_app].
    - induction (rev (c_loops c)); constructor; [constructor|assumption].
    - induction (c_loops c) as [|l ls IH]; [constructor|]. apply Forall2_app; [apply setter_intr|exact IH].
    - destruct (c_ret_used c); repeat constructor.
  Qed.

  (* they raise every flag of the context; what is evaluated before them has put the return value in place *)
  Lemma sim_ret_setters c v s pre σ σ1 :
    EvSeq pre σ σ1 -> s_tr σ1 = x_tr s -> s_pos σ1 = x_pos s ->
    match v with
    | Some k => lookup (s_env σ1) (RVname c) = Some (VProbe k)
    | None => lookup (s_env σ1) (RVname c) = lookup (s_env σ) (RVname c)
    end -> SimRes c (OReturn v) s [EList (pre ++ ret_setters c)] σ.
  Proof.
    intros Hpre Ht Hp HRV. apply (sim_setters c (OReturn v) s pre _ _ σ σ1 Hpre (ret_setters_names c) Ht Hp).
    intros e' Hset Hkeep. cbn [Post]. unfold ret_names in *. split; [|split].
    - apply Forall_forall. intros l Hl. split.
      + apply Hset, in_or_app. left. apply in_map. apply -> in_rev. exact Hl.
      + intros U. apply Hset, in_or_app. right. apply in_or_app. left. apply in_flat_map. exists l. split; [exact Hl|].
        exact (intr_names_in l U).
    - intros U. apply Hset. rewrite U. do 2 (apply in_or_app; right). left. reflexivity.
    - rewrite Hkeep; [destruct v; exact HRV|]. intros Hin.
      apply in_app_or in Hin. destruct Hin as [Hin|Hin]; [|apply in_app_or in Hin; destruct Hin as [Hin|Hin]].
      + apply in_map_iff in Hin. destruct Hin as [l [Hl _]]. exact (proj1 (RVname_ne_loop c l) (eq_sym Hl)).
      + apply in_flat_map in Hin. destruct Hin as [l [_ Hl]]. destruct (intr_names_sub l _ Hl) as [X|[]]. exact (proj2 (RVname_ne_loop c l) (eq_sym X)).
      + destruct (c_ret_used c); [|destruct Hin]. destruct Hin as [Hin|[]]. revert Hin. apply ol_kind_ne. reflexivity.
  Qed.

  Lemma sim_return f v : SimStmt f (KReturn v).
  Proof.
    intros s o s' Hex c q r es σ HT _ Hf _ _ Ht Hp HL. cbn [wf_sk] in Hf.
    unfold L, ifn in *. destruct v as [k|]; injection Hex as <- <-; cbn [embed lower_stmt] in HL;
      destruct (n_kind (c_nsp c)); try discriminate; try rewrite (tr_probe _ _ _ HT) in HL; injection HL as <-.
    - (* the value is stored first *)
      apply (sim_ret_setters c (Some k) _ [_] σ (setv (emit σ (EVal k)) (RVname c) (VProbe k))).
      + eapply EvSeq_one. apply Ev_named; [reflexivity|apply Ev_val].
      + cbn. rewrite Ht. reflexivity.
      + exact Hp.
      + apply lookup_bind_eq.
    - exact (sim_ret_setters c None s [] σ σ (ES_nil orc σ) Ht Hp eq_refl).
  Qed.

  (* a statement that ends abnormally has raised the flag of the guard behind it: the rest of the lowered block is skipped *)
  Lemma rest_skipped c p br i s rest es es1 o1 s1 σ :
    lower_block cfg0 L c p br i (s :: rest) = inl es -> L c (i :: br :: p) s = inl es1 -> Covers c (s :: rest) ->
    o1 <> ONormal -> permits o1 s = true -> (forall v, o1 = OReturn v -> ifn c = true) ->
    SimRes c o1 s1 es1 σ -> SimRes c o1 s1 es σ.
  Proof.
    intros HLB HL1 HC Hne P1 Hret [σ1 [Ev1 R]]. exists σ1. split; [|exact R].
    destruct (lower_block_cons _ _ _ _ _ _ _ _ _ HLB) as [es1' [HL1' Hshape]]. rewrite HL1 in HL1'. injection HL1' as <-.
    destruct (is_interrupt s) eqn:Hk; [subst es; exact Ev1|].
    destruct rest as [|s2 r2]; [subst es; exact Ev1|]. destruct Hshape as [rs [_ ->]].
    destruct R as [_ [_ Q1]].
    destruct (guard_bumps c o1 _ _ s Hne P1 Q1 Hret) as [bumps [flag [EG Hb]]]. rewrite EG, Hb.
    assert (Hflag := flag_after c o1 _ _ _ _ _ _ _ EG Hb Hk HC Q1).
    replace (match o1 with ONormal => false | _ => true end) with true in Hflag by (destruct o1; [contradiction|reflexivity..]).
    eapply EvSeq_app; [exact Ev1|]. apply Ev_unless_skip, Ev_name. exact Hflag.
  Qed.

  Lemma block_sim f : SimBlock f -> (forall st, SimStmt f st) -> SimBlock (S f).
  Proof.
    intros HB HS b s o s' Hex c p br i es σ [HT [HN [Hwf [HC [HCl [Htr Hpos]]]]]] HLB.
    destruct b as [|st rest].
    - cbn [exec] in Hex. injection Hex as <- <-. injection HLB as <-.
      exists σ. split; [apply ES_nil|]. split; [exact Htr|]. split; [exact Hpos|]. split; [exact HCl|reflexivity].
    - rewrite exec_block_cons in Hex. destruct (exec_stmt orc f st s) as [[o1 s1]|] eqn:E1; [|discriminate].
      cbn [map] in HLB, HC. destruct (lower_block_cons _ _ _ _ _ _ _ _ _ HLB) as [es1 [HL1 Hshape]].
      unfold wf_block in Hwf. cbn [forallb] in Hwf. apply andb_true_iff in Hwf. destruct Hwf as [Hst Hrest].
      destruct (stmt_outcome orc f (exec_outcome orc f) st s o1 s1 E1) as [P1 W1].
      assert (HNq : Nest (i :: br :: p) (c_loops c)) by (eapply Nest_longer; [|exact HN]; cbn; lia).
      destruct (HS st s o1 s1 E1 c (i :: br :: p) (map embed rest) es1 σ HT HNq Hst HC HCl Htr Hpos HL1) as [σ1 [Ev1 [Tr1 [Po1 Q1]]]].
      assert (Done : SimRes c o1 s1 es1 σ) by (exists σ1; auto).
      destruct o1; cbn [cont_with] in Hex.
      2-4: injection Hex as <- <-;
           refine (rest_skipped c p br i _ _ es es1 _ s1 σ HLB HL1 HC _ P1 (fun v Ev => W1 v _ _ Ev Hst) Done); discriminate.
      (* the statement completed: the rest of the block runs *)
      cbn [permits] in P1. apply negb_true_iff in P1.
      rewrite P1 in Hshape. destruct Q1 as [Cl1 RV1].
      destruct rest as [|s2 r2]; cbn [map] in Hshape, HC.
      + subst es. destruct f; [discriminate|]. injection Hex as <- <-. exact Done.
      + destruct Hshape as [rs [HLr ->]].
        pose proof (Pre_intro c p (s2 :: r2) s1 σ1 HT HN Hrest (Covers_tail c _ _ P1 HC) Cl1 (conj Tr1 Po1)) as PreR.
        destruct (HB _ _ _ _ Hex c p br (S i) rs σ1 PreR HLr) as [σ' [Ev2 [Tr2 [Po2 Q2]]]].
        apply (Post_rebase _ _ _ _ _ RV1) in Q2.
        exists σ'. split; [|auto].
        destruct (guard_of c) as [bumps [flag|]] eqn:EG; [destruct (bumps (embed st)) eqn:Eb|];
          (eapply EvSeq_app; [exact Ev1|]); try exact Ev2.
        (* guarded: the flag is false, the rest is evaluated inside the conditional *)
        assert (Hflag := flag_after c ONormal _ _ _ _ _ _ _ EG Eb P1 HC (conj Cl1 RV1)).
        exact (Ev_unless_run orc σ1 (Name flag) rs σ' (Ev_name orc _ _ _ Hflag) Ev2).
  Qed.

  Lemma Ev_setv_if (u : bool) σ x : EvSeq (if u then [NamedExpr x cfalse] else []) σ (setv_if u σ x (VBool false)).
  Proof. destruct u; [eapply EvSeq_one; apply Ev_named; [reflexivity|apply Ev_false]|apply ES_nil]. Qed.

  Lemma Ev_while_comp s var test body r : Ev (MWhile test body) s r -> Ev (MExpr (while_comp var body test)) s r.
  Proof. intros [f H]. exists (S f). rewrite run_S. exact H. Qed.

  (* the comprehension over the plain iterable / over the wrapper variable.  [step] picks the branch of a comprehension
     by [is_takewhile] of its iterable, which [cbv [step]] leaves standing: the [change] states the branch that is
     reached and leaves the choice to conversion. *)
  Lemma Ev_listcomp_plain s k tgt body r :
    Ev (MForPlain k tgt body) (emit (emit s (EIterable k)) (EIter k)) r ->
    Ev (MExpr (ListComp body [(Name tgt, probe "it" k, [], false)])) s r.
  Proof.
    intros [f H]. exists (S (S f)). rewrite run_S.
    change (run orc (S f) (MForPlain k tgt body) (emit (emit s (EIterable k)) (EIter k)) = Some r).
    apply (run_mono orc f); [exact H|lia].
  Qed.

  Lemma Ev_listcomp_wrap s itn k tgt body r : lookup (s_env s) itn = Some (VWrap k) ->
    Ev (MForWrap itn k tgt body) s r -> Ev (MExpr (ListComp body [(Name tgt, Name itn, [], false)])) s r.
  Proof.
    intros Hl [f H]. exists (S f). rewrite run_S.
    change (match lookup (s_env s) itn with Some (VWrap k0) => run orc f (MForWrap itn k0 tgt body) s | _ => None end = Some r).
    rewrite Hl. exact H.
  Qed.

  Lemma Ev_brk_read lk q b σ v : lookup (s_env σ) (Bname (loop_me lk q b)) = Some v -> Ev (MExpr (brk_read lk q)) σ (v, σ).
  Proof. destruct lk; [apply Ev_name|apply Ev_break_attr]. Qed.

  Lemma loop_else_skip lk q b el' σ :
    brk_block (map embed b) = true -> lookup (s_env σ) (Bname (loop_me lk q b)) = Some (VBool true) ->
    EvSeq (loop_else lk q b el') σ σ.
  Proof.
    intros HB Hl. unfold loop_else. destruct el' as [|e r]; [apply ES_nil|]. rewrite HB.
    apply Ev_unless_skip, (Ev_brk_read lk q b). exact Hl.
  Qed.

  Lemma loop_else_run lk q b el' σ σ' :
    (brk_block (map embed b) = true -> lookup (s_env σ) (Bname (loop_me lk q b)) = Some (VBool false)) ->
    EvSeq el' σ σ' -> EvSeq (loop_else lk q b el') σ σ'.
  Proof.
    intros HB Hr. unfold loop_else. destruct el' as [|e r]; [exact Hr|].
    destruct (brk_block (map embed b)).
    - exact (Ev_unless_run orc σ (brk_read lk q) _ σ' (Ev_brk_read lk q b _ _ (HB eq_refl)) Hr).
    - destruct (Ev_wrap orc cfg0 _ _ _ eq_refl Hr) as [v Hv]. eapply EvSeq_one. exact Hv.
  Qed.

  (* the state in which a round of the body starts: after the test, resp. after next() and the binding of its result *)
  Definition round_start (lk : loopkind) (q : path) (k : Z) (σ : st) : st :=
    match lk with
    | LWhile => emit (tick σ) (ECond k true)
    | LFor => setv (emit (tick σ) (ENext k true)) (ftmp q) (VInt k)
    end.

  Lemma w_test_ev q b k σ :
    (brk_block (map embed b) = true -> lookup (s_env σ) (break_name q) = Some (VBool false)) ->
    Ev (MExpr (w_test q b k)) σ (VBool (orc (s_pos σ)), emit (tick σ) (ECond k (orc (s_pos σ)))).
  Proof.
    intros HB. unfold w_test. destruct (brk_block (map embed b)); [|apply Ev_cond].
    eapply Ev_bool_go; [apply Ev_not; apply Ev_name; apply HB; reflexivity|reflexivity|apply Ev_cond].
  Qed.

  Lemma loop_run_step lk q b k body σ w σ2 r :
    (brk_block (map embed b) = true -> lookup (s_env σ) (Bname (loop_me lk q b)) = Some (VBool false)) ->
    orc (s_pos σ) = true ->
    Ev (MExpr body) (round_start lk q k σ) (w, σ2) -> Ev (loop_run lk q b k body) σ2 r ->
    Ev (loop_run lk q b k body) σ r.
  Proof.
    intros HB Hb H1 H2. destruct lk; cbn [loop_run round_start Bname loop_me lp_kind lp_path] in *.
    - pose proof (w_test_ev q b k σ HB) as Ht. rewrite Hb in Ht.
      destruct (Ev3 orc _ _ _ _ _ _ _ _ _ Ht H1 H2) as [f [A [B C]]]. exists (S f). rewrite run_while, A. cbn [truthy]. rewrite B. exact C.
    - destruct (Ev2 orc _ _ _ _ _ _ H1 H2) as [f [A B]]. exists (S f). unfold f_mode in *. destruct (brk_block (map embed b)).
      + rewrite run_forwrap, (HB eq_refl). cbn [truthy]. cbn zeta. rewrite Hb, A. exact B.
      + rewrite run_forplain. cbn zeta. rewrite Hb, A. exact B.
  Qed.

  Lemma loop_run_stop lk q b k body σ :
    (brk_block (map embed b) = true -> lookup (s_env σ) (Bname (loop_me lk q b)) = Some (VBool false)) ->
    orc (s_pos σ) = false -> Ev (loop_run lk q b k body) σ (VList 0, emit (tick σ) (loop_event lk k false)).
  Proof.
    intros HB Hb. destruct lk; cbn [loop_run loop_event Bname loop_me lp_kind lp_path] in *.
    - pose proof (w_test_ev q b k σ HB) as [f Ht]. rewrite Hb in Ht. exists (S f). rewrite run_while, Ht. reflexivity.
    - exists 1. unfold f_mode. destruct (brk_block (map embed b)).
      + rewrite run_forwrap, (HB eq_refl). cbn [truthy]. cbn zeta. rewrite Hb. reflexivity.
      + rewrite run_forplain. cbn zeta. rewrite Hb. reflexivity.
  Qed.

  Lemma loop_run_broken lk q b k body σ :
    brk_block (map embed b) = true -> lookup (s_env σ) (Bname (loop_me lk q b)) = Some (VBool true) ->
    Ev (loop_run lk q b k body) σ (VList 0, σ).
  Proof.
    intros HB Hl. destruct lk; cbn [loop_run Bname loop_me lp_kind lp_path] in *.
    - unfold w_test. rewrite HB.
      destruct (Ev_bool_stop orc And σ _ (probe "c" k) _ _ (Ev_not orc _ _ _ _ (Ev_name orc _ _ _ Hl)) eq_refl) as [f Ht].
      exists (S f). rewrite run_while, Ht. reflexivity.
    - exists 1. unfold f_mode. rewrite HB, run_forwrap, Hl. reflexivity.
  Qed.

  Definition SimWhileLoop (f : nat) : Prop :=
    forall k b el s o s', exec orc f (XWhile k b el) s = Some (o, s') ->
    forall c q σ b' el',
      transparent (c_nsp c) -> Nest q (c_loops c) ->
      wf_block true (ifn c) b = true -> wf_block (il c) (ifn c) el = true -> Covers c (map embed el) ->
      Clear c (s_env σ) -> (brk_block (map embed b) = true -> lookup (s_env σ) (break_name q) = Some (VBool false)) ->
      s_tr σ = x_tr s -> s_pos σ = x_pos s ->
      lower_block cfg0 L (w_cin c q b) q 0 0 (map embed b) = inl b' ->
      lower_block cfg0 L c q 1 0 (map embed el) = inl el' ->
      exists σ1 σ', Ev (MWhile (w_test q b k) (wrap cfg0 (w_body q b b'))) σ (VList 0, σ1) /\
                    EvSeq (w_else q b el') σ1 σ' /\
                    s_tr σ' = x_tr s' /\ s_pos σ' = x_pos s' /\ Post c o (s_env σ) (s_env σ').

  Definition SimForLoop (f : nat) : Prop :=
    forall k b el s o s', exec orc f (XFor k b el) s = Some (o, s') ->
    forall c q σ b' el',
      transparent (c_nsp c) -> Nest q (c_loops c) ->
      wf_block true (ifn c) b = true -> wf_block (il c) (ifn c) el = true -> Covers c (map embed el) ->
      Clear c (s_env σ) -> (brk_block (map embed b) = true -> lookup (s_env σ) (brk_key (it_name q)) = Some (VBool false)) ->
      s_tr σ = x_tr s -> s_pos σ = x_pos s ->
      lower_block cfg0 L (f_cin c q b) q 0 0 (map embed b) = inl b' ->
      lower_block cfg0 L c q 1 0 (map embed el) = inl el' ->
      exists σ1 σ', Ev (f_mode q b k (wrap cfg0 (f_body q b b'))) σ (VList 0, σ1) /\
                    EvSeq (f_else q b el') σ1 σ' /\
                    s_tr σ' = x_tr s' /\ s_pos σ' = x_pos s' /\ Post c o (s_env σ) (s_env σ').

  (* the lowered loop of kind lk runs from σ, its else clause after it, and they end in step with (o, s');
     [SimLoop LWhile] is [SimWhileLoop], [SimLoop LFor] is [SimForLoop] *)
  Definition SimLoop (lk : loopkind) (f : nat) : Prop :=
    forall k b el s o s', exec orc f (loop_x lk k b el) s = Some (o, s') ->
    forall c q σ b' el',
      transparent (c_nsp c) -> Nest q (c_loops c) ->
      wf_block true (ifn c) b = true -> wf_block (il c) (ifn c) el = true -> Covers c (map embed el) ->
      Clear c (s_env σ) -> (brk_block (map embed b) = true -> lookup (s_env σ) (Bname (loop_me lk q b)) = Some (VBool false)) ->
      s_tr σ = x_tr s -> s_pos σ = x_pos s ->
      lower_block cfg0 L (loop_cin lk c q b) q 0 0 (map embed b) = inl b' ->
      lower_block cfg0 L c q 1 0 (map embed el) = inl el' ->
      exists σ1 σ', Ev (loop_run lk q b k (wrap cfg0 (loop_body lk q b b'))) σ (VList 0, σ1) /\
                    EvSeq (loop_else lk q b el') σ1 σ' /\
                    s_tr σ' = x_tr s' /\ s_pos σ' = x_pos s' /\ Post c o (s_env σ) (s_env σ').

  Lemma round_start_spec lk q b k σ s : InStep σ s ->
    exists σx, EvSeq (round_prefix lk q b) (round_start lk q k σ) σx /\
      InStep σx (xemit (xtick s) (loop_event lk k true)) /\
      (uses_flag mi_loop (map embed b) = true -> lookup (s_env σx) (intr_name q) = Some (VBool false)) /\
      (forall y, y <> ftmp q -> y <> intr_name q -> y <> "x" -> lookup (s_env σx) y = lookup (s_env σ) y).
  Proof.
    intros HS. unfold round_prefix.
    set (σ0 := round_start lk q k σ). set (used := uses_flag mi_loop (map embed b)).
    assert (Sy : InStep (setv_if used σ0 (intr_name q) (VBool false)) (xemit (xtick s) (loop_event lk k true))).
    { apply InStep_setv_if. destruct lk; [|apply InStep_setv]; apply InStep_emit, InStep_tick, HS. }
    destruct (setv_if_spec used σ0 (intr_name q) (VBool false)) as [_ [_ [Ei Ni]]].
    pose proof (Ev_setv_if used σ0 (intr_name q)) as Hreset.
    destruct lk.
    - exists (setv_if used σ0 (intr_name q) (VBool false)). rewrite app_nil_r.
      refine (conj Hreset (conj Sy (conj Ei _))). intros y _ Hy _. exact (Ni y Hy).
    - exists (setv (setv_if used σ0 (intr_name q) (VBool false)) "x" (VInt k)). split.
      + eapply EvSeq_app; [exact Hreset|]. eapply EvSeq_one. apply Ev_named; [reflexivity|]. apply Ev_name.
        rewrite Ni by (apply ol_kind_ne; reflexivity). apply lookup_bind_eq.
      + cbn [setv s_env]. refine (conj (InStep_setv _ _ _ _ Sy) (conj _ _)).
        * intros U. rewrite lookup_bind_ne by apply x_ne_ol. exact (Ei U).
        * intros y Hf Hi Hx. rewrite lookup_bind_ne by congruence. rewrite (Ni y Hi). apply lookup_bind_ne. congruence.
  Qed.

  Lemma round_sim lk f k b s ob s2 c q σ b' :
    SimBlock f -> exec orc f (XBlock b) (xemit (xtick s) (loop_event lk k true)) = Some (ob, s2) -> orc (s_pos σ) = true ->
    transparent (c_nsp c) -> Nest q (c_loops c) -> wf_block true (ifn c) b = true -> Clear c (s_env σ) ->
    (brk_block (map embed b) = true -> lookup (s_env σ) (Bname (loop_me lk q b)) = Some (VBool false)) ->
    s_tr σ = x_tr s -> s_pos σ = x_pos s ->
    lower_block cfg0 L (loop_cin lk c q b) q 0 0 (map embed b) = inl b' ->
    exists σ2,
      (forall r, Ev (loop_run lk q b k (wrap cfg0 (loop_body lk q b b'))) σ2 r ->
                 Ev (loop_run lk q b k (wrap cfg0 (loop_body lk q b b'))) σ r) /\
      s_tr σ2 = x_tr s2 /\ s_pos σ2 = x_pos s2 /\ round_end lk c q b ob (s_env σ) (s_env σ2).
  Proof.
    intros HB Eb Ebit HT HN Hwb HCl HBf Htr Hpos HLb.
    destruct (round_start_spec lk q b k σ s (conj Htr Hpos)) as [σx [Hpre [Sx [Hix Hkeep]]]].
    destruct (loop_enter lk c q b _ _ HN HCl HBf Hix Hkeep) as [Clx RVx].
    assert (PreB : Pre (loop_cin lk c q b) q b (xemit (xtick s) (loop_event lk k true)) σx).
    { apply Pre_intro; try assumption; [split; [cbn; lia|exact HN]|apply Covers_loop_body]. }
    destruct (HB _ _ _ _ Eb (loop_cin lk c q b) q 0 0 b' σx PreB HLb) as [σ2 [EvB [Tr2 [Po2 P2]]]].
    destruct (Ev_wrap orc cfg0 (loop_body lk q b b') (round_start lk q k σ) σ2 eq_refl) as [w Hbody].
    { rewrite loop_body_eq. eapply EvSeq_app; eassumption. }
    apply (Post_rebase (loop_cin lk c q b) _ _ _ _ RVx), loop_exit in P2.
    exists σ2. split; [|exact (conj Tr2 (conj Po2 P2))].
    intros r. exact (loop_run_step lk q b k _ σ w σ2 r HBf Ebit Hbody).
  Qed.

  Lemma loop_step lk f : SimBlock f -> SimLoop lk f -> SimLoop lk (S f).
  Proof.
    intros HB HW k b el s o s' Hex c q σ b' el' HT HN Hwb Hwe HCe HCl HBf Htr Hpos HLb HLe.
    rewrite exec_loop in Hex. cbv zeta in Hex. rewrite <- Hpos in Hex.
    destruct (orc (s_pos σ)) eqn:Ebit.
    - destruct (exec orc f (XBlock b) _) as [[ob s2]|] eqn:Eb; [|discriminate].
      destruct (round_sim lk f k b s ob s2 c q σ b' HB Eb Ebit HT HN Hwb HCl HBf Htr Hpos HLb) as [σ2 [Step [Tr2 [Po2 P2]]]].
      unfold round_end in P2. destruct (after_body ob) as [o'|] eqn:Eo.
      + (* the body broke the loop or returned: the loop is over and its else clause is skipped *)
        injection Hex as <- <-. destruct P2 as [Bt Po]. pose proof (body_stops orc _ _ _ _ _ _ Eb Eo) as Hb.
        exists σ2, σ2. split; [apply Step, loop_run_broken; assumption|]. split; [apply loop_else_skip; assumption|].
        exact (conj Tr2 (conj Po2 Po)).
      + (* it came to its end or to a continue: the loop goes on *)
        destruct P2 as [Cl2 [Bf2 RV2]].
        destruct (HW _ _ _ _ _ _ Hex c q σ2 b' el' HT HN Hwb Hwe HCe Cl2 Bf2 Tr2 Po2 HLb HLe) as [σ1 [σ' [A [B [C [D E]]]]]].
        exists σ1, σ'. split; [apply Step; exact A|]. exact (conj B (conj C (conj D (Post_rebase _ _ _ _ _ RV2 E)))).
    - (* the test fails, or the iterator is exhausted: the else clause *)
      set (σn := emit (tick σ) (loop_event lk k false)).
      assert (PreE : Pre c q el (xemit (xtick s) (loop_event lk k false)) σn).
      { apply Pre_intro; try assumption; [eapply Nest_longer; [|exact HN]; cbn; lia|].
        apply InStep_emit, InStep_tick. exact (conj Htr Hpos). }
      destruct (HB _ _ _ _ Hex c q 1 0 el' σn PreE HLe) as [σ' [EvE R]].
      exists σn, σ'. split; [exact (loop_run_stop lk q b k _ σ HBf Ebit)|]. split; [|exact R].
      apply loop_else_run; [exact HBf|exact EvE].
  Qed.

  Lemma sim_if f k b el : SimBlock f -> SimStmt f (KIf k b el).
  Proof.
    intros HB s o s' Hex c q r es σ HT HN Hwf HC HCl Htr Hpos HL.
    cbn [exec_stmt] in Hex. cbn [wf_sk] in Hwf. apply andb_true_iff in Hwf. destruct Hwf as [Hwb Hwo].
    unfold L in HL. cbn [embed lower_stmt] in HL. fold L in HL.
    apply rbind_inl in HL as (b' & Eb & HL). apply rbind_inl in HL as (o' & Eo & HL).
    rewrite (tr_probe _ _ _ HT) in HL. injection HL as <-.
    assert (HN0 : Nest (0 :: q) (c_loops c)) by (eapply Nest_longer; [|exact HN]; cbn; lia).
    set (bit := orc (x_pos s)) in *. set (σc := emit (tick σ) (ECond k bit)).
    assert (Hcond : Ev (MExpr (probe "c" k)) σ (VBool bit, σc)) by (subst σc bit; rewrite <- Hpos; apply Ev_cond).
    pose proof (InStep_emit _ _ (ECond k bit) (InStep_tick σ s (conj Htr Hpos))) as Sy. fold σc in Sy.
    cbn [embed] in HC.
    assert (Sub : SimRes c o s' (if bit then b' else o') σc).
    { destruct bit.
      - refine (HB _ _ _ _ Hex c q 0 0 b' σc (Pre_intro c q b _ σc HT HN0 Hwb _ HCl Sy) Eb).
        eapply Covers_sub; [|exact HC]. intros H. unfold uses_flag in H. cbn [uses_flag_stmt]. rewrite H. reflexivity.
      - refine (HB _ _ _ _ Hex c q 1 0 o' σc (Pre_intro c q el _ σc HT HN0 Hwo _ HCl Sy) Eo).
        eapply Covers_sub; [|exact HC]. intros H. unfold uses_flag in H. cbn [uses_flag_stmt]. rewrite H. apply orb_true_r. }
    destruct Sub as [σ1 [EvS R]]. destruct (Ev_wrap orc cfg0 _ _ _ eq_refl EvS) as [vw Hw].
    exists σ1. split; [|exact R]. eapply EvSeq_one. eapply Ev_if; [exact Hcond|]. cbn [truthy]. destruct bit; exact Hw.
  Qed.

  Lemma sim_while f k b el : SimLoop LWhile f -> SimStmt f (KWhile k b el).
  Proof.
    intros HW s o s' Hex c q r es σ HT HN Hwf HC HCl Htr Hpos HL.
    cbn [exec_stmt] in Hex. cbn [wf_sk] in Hwf. apply andb_true_iff in Hwf. destruct Hwf as [Hwb Hwe].
    (* of a loop, the guards that count for the block around it are those of its else clause: by conversion *)
    assert (HCe : Covers c (map embed el)) by (eapply Covers_sub; [|exact HC]; exact (fun H => H)).
    unfold L in HL. cbn [embed lower_stmt] in HL. fold L in HL.
    apply rbind_inl in HL as (b' & Eb & HL). apply rbind_inl in HL as (el' & Ee & HL).
    rewrite (tr_probe _ _ _ HT) in HL. cbn [rbind ret] in HL. injection HL as <-.
    (* the break flag is initialised if the loop can be broken *)
    set (hb := brk_block (map embed b)) in *.
    destruct (setv_if_spec hb σ (break_name q) (VBool false)) as [T0 [P0 [E0 N0]]].
    set (σ0 := setv_if hb σ (break_name q) (VBool false)) in *.
    assert (HF : Frame c (s_env σ) (s_env σ0)).
    { intros x Hx. apply N0. intros ->. exact (fresh_ol c q "break" HN eq_refl Hx). }
    rewrite <- T0 in Htr. rewrite <- P0 in Hpos.
    destruct (HW _ _ _ _ _ _ Hex c q σ0 b' el' HT HN Hwb Hwe HCe (Clear_frame _ _ _ HF HCl) E0 Htr Hpos Eb Ee)
      as [σ1 [σ' [A [B [C [D E]]]]]].
    exists σ'. split.
    - eapply EvSeq_app; [apply Ev_setv_if|]. econstructor; [apply Ev_while_comp; exact A|exact B].
    - exact (conj C (conj D (Post_rebase _ _ _ _ _ (HF _ (tracked_RV c)) E))).
  Qed.

  Lemma sim_for f k b el : SimLoop LFor f -> SimStmt f (KFor k b el).
  Proof.
    intros HW s o s' Hex c q r es σ HT HN Hwf HC HCl Htr Hpos HL.
    cbn [exec_stmt] in Hex. cbn [wf_sk] in Hwf. apply andb_true_iff in Hwf. destruct Hwf as [Hwb Hwe].
    (* as in sim_while: the guards of the loop that count are those of its else clause *)
    assert (HCe : Covers c (map embed el)) by (eapply Covers_sub; [|exact HC]; exact (fun H => H)).
    destruct (for_lowered c q k b el es HT HL) as [b' [el' [Eb [Ee ->]]]].
    set (σp := emit (emit σ (EIterable k)) (EIter k)).
    destruct (InStep_emit _ _ (EIter k) (InStep_emit σ s (EIterable k) (conj Htr Hpos))) as [Tp Pp]. fold σp in Tp, Pp.
    destruct (brk_block (map embed b)) eqn:Ehb.
    - (* the iterable is wrapped, its break flag starts false *)
      set (σw := setv (setv σp (brk_key (it_name q)) (VBool false)) (it_name q) (VWrap k)).
      assert (HF : Frame c (s_env σ) (s_env σw)).
      { intros x Hx. unfold σw. cbn [setv s_env].
        rewrite (bind_fresh c _ _ _ (fresh_ol c q "it" HN eq_refl) x Hx), (bind_fresh c _ _ _ (fresh_brk c q HN) x Hx). reflexivity. }
      assert (HBw : brk_block (map embed b) = true -> lookup (s_env σw) (brk_key (it_name q)) = Some (VBool false)).
      { intros _. subst σw. cbn [setv s_env]. rewrite lookup_bind_ne by apply not_eq_sym, brk_key_ne_ol. apply lookup_bind_eq. }
      destruct (HW _ _ _ _ _ _ Hex c q σw b' el' HT HN Hwb Hwe HCe (Clear_frame _ _ _ HF HCl) HBw Tp Pp Eb Ee)
        as [σ1 [σ' [A [B [C [D E]]]]]].
      cbn [loop_run] in A. unfold f_mode in A. rewrite Ehb in A.
      exists σ'. split; [|exact (conj C (conj D (Post_rebase _ _ _ _ _ (HF _ (tracked_RV c)) E)))].
      econstructor; [apply Ev_named_wrapper; apply Ev_iterable|].
      econstructor; [|exact B]. apply (Ev_listcomp_wrap σw (it_name q) k); [apply lookup_bind_eq|exact A].
    - (* plain iteration *)
      assert (HBp : brk_block (map embed b) = true -> lookup (s_env σp) (brk_key (it_name q)) = Some (VBool false)).
      { rewrite Ehb. discriminate. }
      destruct (HW _ _ _ _ _ _ Hex c q σp b' el' HT HN Hwb Hwe HCe HCl HBp Tp Pp Eb Ee)
        as [σ1 [σ' [A [B R]]]].
      cbn [loop_run] in A. unfold f_mode in A. rewrite Ehb in A.
      exists σ'. split; [|exact R]. econstructor; [apply Ev_listcomp_plain; exact A|exact B].
  Qed.

  Lemma stmt_sim f : SimBlock f -> (forall lk, SimLoop lk f) -> forall st, SimStmt f st.
  Proof.
    intros HB HL [k| | | |v|k b el|k b el|k b el].
    - apply sim_mark.
    - apply sim_pass.
    - apply sim_break.
    - apply sim_continue.
    - apply sim_return.
    - apply sim_if, HB.
    - apply sim_while, HL.
    - apply sim_for, HL.
  Qed.

  Lemma sim_gen : forall f, SimBlock f /\ forall lk, SimLoop lk f.
  Proof.
    induction f as [|f [IHb IHl]].
    - split; [intros b s o s' H; discriminate|intros lk k b el s o s' H; destruct lk; discriminate].
    - split; [apply block_sim; [exact IHb|apply stmt_sim; assumption]|intros lk; apply loop_step; [exact IHb|apply IHl]].
  Qed.

End Sim.

Section All.
  Variable orc : nat -> bool.

  Theorem sim_all : forall f, SimBlock orc f /\ SimWhileLoop orc f /\ SimForLoop orc f.
  Proof. intros f. destruct (sim_gen orc f) as [HB HL]. exact (conj HB (conj (HL LWhile) (HL LFor))). Qed.

  Definition top_symtab : symtab := ST KModule "top" 0 [] [] [] [] [] [].

  Lemma module_nsp lt : exists g, generate_nsp lt top_symtab = inl g /\ n_kind g = NGlobal /\ n_id g = 0.
  Proof. eexists. split; [reflexivity|]. split; reflexivity. Qed.

  (* Trusted: in the semantics [__import__] and the three-argument [type] call that makes the wrapper class return
     None and do nothing else.  Importing itertools / importlib and creating the class are taken to have no effect a
     skeleton observes, and what the wrapper does is built into MForWrap, not derived from the text of the class. *)
  Lemma Ev_import lib σ : Ev orc (MExpr (import_lib lib)) σ (VNone, setv σ ("__ol_" ++ lib)%string VNone).
  Proof. exists 3. reflexivity. Qed.

  Lemma Ev_preset σ : Ev orc (MExpr preset_iter_wrapper) σ (VNone, setv σ "__ol_iter_wrapper" VNone).
  Proof. exists 3. reflexivity. Qed.

  (* the prelude binds helper names only *)
  Lemma Ev_prelude body σ : exists σp, EvSeq orc (prelude body) σ σp /\ s_tr σp = s_tr σ /\ s_pos σp = s_pos σ.
  Proof.
    assert (opt : forall (c : bool) e σ σ1, Ev orc (MExpr e) σ (VNone, σ1) -> s_tr σ1 = s_tr σ -> s_pos σ1 = s_pos σ ->
              exists σ', EvSeq orc (if c then [e] else []) σ σ' /\ s_tr σ' = s_tr σ /\ s_pos σ' = s_pos σ).
    { intros c e σ0 σ1 H Ht Hp. destruct c; [exists σ1|exists σ0]; (split; [|auto]); [eapply EvSeq_one; exact H|apply ES_nil]. }
    unfold prelude.
    destruct (opt (existsb (visits (fun s => match s with SFor _ _ b _ => brk_block b | _ => false end)) body)
                  _ _ _ (Ev_preset σ) eq_refl eq_refl) as [σ1 [E1 [T1 P1]]].
    destruct (opt (existsb (visits (fun s => match s with SImport _ => true | _ => false end)) body)
                  _ _ _ (Ev_import "importlib" σ1) eq_refl eq_refl) as [σ2 [E2 [T2 P2]]].
    destruct (opt (existsb (visits (fun s => match s with SWhile _ _ _ => true | _ => false end)) body)
                  _ _ _ (Ev_import "itertools" σ2) eq_refl eq_refl) as [σp [E3 [T3 P3]]].
    exists σp. split; [exact (EvSeq_app orc _ _ _ _ _ E1 (EvSeq_app orc _ _ _ _ _ E2 E3))|].
    split; congruence.
  Qed.

  Lemma module_run root body e (Q : st -> Prop) : lower_module cfg0 root body = inl e ->
    exists g es, generate_nsp false root = inl g /\ lower_block cfg0 L (mkCtx g [] false) [] 0 0 body = inl es /\
      ((forall σp, s_tr σp = [] -> s_pos σp = 0 -> exists σ', EvSeq orc es σp σ' /\ Q σ') ->
       exists f v σ', run orc f (MExpr e) (mkSt [] [] 0) = Some (v, σ') /\ Q σ').
  Proof.
    intros HL. destruct (lower_module_shape _ _ _ _ HL) as [g [es [Hg [Hes ->]]]].
    exists g, es. split; [exact Hg|]. split; [exact Hes|]. intros Hrun.
    destruct (Ev_prelude body (mkSt [] [] 0)) as [σp [Ep [Tp Pp]]].
    destruct (Hrun σp Tp Pp) as [σ' [Es HQ]].
    destruct (Ev_wrap orc cfg0 _ _ _ eq_refl (EvSeq_app orc _ _ _ _ _ Ep Es)) as [v [f Hf]].
    exists f, v, σ'. split; [exact Hf|exact HQ].
  Qed.

  (* C05 at module level; what it says in terms of the source is written at C05_module_simulation in Properties/C05.v *)
  Theorem module_simulation : forall fuel b o tr pos e,
    wf_block false false b = true ->
    exec orc fuel (XBlock b) (mkSst [] 0) = Some (o, mkSst tr pos) ->
    lower_module cfg0 top_symtab (map embed b) = inl e ->
    exists f v σ', run orc f (MExpr e) (mkSt [] [] 0) = Some (v, σ') /\ s_tr σ' = tr /\ s_pos σ' = pos.
  Proof.
    intros fuel b o tr pos e Hwf Hex HL.
    destruct (module_run _ _ _ (fun σ' => s_tr σ' = tr /\ s_pos σ' = pos) HL) as [g [es [Hg [Hes Hrun]]]].
    destruct (module_nsp false) as [g' [Hg' [Hk _]]]. rewrite Hg in Hg'. injection Hg' as <-.
    apply Hrun. intros σp Tp Pp.
    assert (PreB : Pre (mkCtx g [] false) [] b (mkSst [] 0) σp).
    { apply Pre_intro; [exact (global_transparent g Hk)|exact I| |apply Covers_global, Hk| |exact (conj Tp Pp)].
      - unfold il, ifn. cbn [c_loops c_nsp]. rewrite Hk. exact Hwf.
      - split; [constructor|]. intros X. discriminate X. }
    destruct (proj1 (sim_gen orc fuel) _ _ _ _ Hex _ [] 0 0 es σp PreB Hes) as [σ' [EvB [Tr' [Po' _]]]].
    exists σ'. auto.
  Qed.
End All.

(* function placement:  def f(): <skeleton>   followed by   r(f()) *)
Section FunctionSim.
  Variable orc : nat -> bool.
  Notation Ev := (Ev orc).
  Notation EvSeq := (EvSeq orc).

  Definition fun_symbols : list symbol := [mkSym "x" true false false false false false true].
  Definition fun_symtab : symtab :=
    ST KModule "top" 0 [mkSym "f" true false false false false false true] [] [] [] []
       [ST KFunction "f" 1 fun_symbols [] [] [] [] []].
  Definition no_args : arguments := mkArgs [] [] None [] [] None [].
  Definition fun_program (b : list sk) : list stmt :=
    [SFunctionDef "f" 1 no_args (map embed b) []; SExpr (call (Name "r") [call (Name "f") []])].

  Lemma fun_nsp : exists g fn, generate_nsp false fun_symtab = inl g /\ n_kind g = NGlobal /\
    find_inner g "f" 1 = Some fn /\ n_kind fn = NFunction /\ n_id fn = 1 /\ transparent fn /\
    n_zero_super fn = false /\ n_inner_nonlocal fn = [] /\ n_is_method fn = false /\ set_params fn [] = fn.
  Proof.
    (* the two namespaces are computed once, the rest is read off them *)
    eexists _, _. split; [vm_compute; reflexivity|]. split; [reflexivity|]. split; [vm_compute; reflexivity|].
    split; [reflexivity|]. split; [reflexivity|]. split; [|repeat split; reflexivity].
    split.
    - (* a load in f: of a name bound by a comprehension, else of the local x, else of a global, which no local of the
         chain hides since x is the only local *)
      intros comp inn i. unfold get_load_name. cbn [n_kind n_inner_nonlocal n_outer_map n_id n_syms mem existsb assoc_nat rev find].
      destruct (mem i comp); [reflexivity|].
      unfold lookup_sym. cbn [find sy_name sy_local].
      destruct (String.eqb "x" i) eqn:E; [reflexivity|].
      unfold get_load_global, self_link. cbn [hidden_by_local lk_kind lk_syms n_kind n_syms n_chain n_id n_inner_nonlocal n_outer_map app].
      unfold lookup_sym. cbn [find sy_name sy_local]. rewrite E. reflexivity.
    - intros v. reflexivity.
  Qed.

  Lemma Ev_call_fun σ g body r : lookup (s_env σ) g = Some (VFun body) -> Ev (MExpr body) σ r -> Ev (MExpr (call (Name g) [])) σ r.
  Proof. intros Hl [f H]. exists (S f). rewrite run_S. cbv [step call]. rewrite Hl. exact H. Qed.

  Lemma Ev_r_call σ g v σ1 res : Ev (MExpr (call (Name g) [])) σ (v, σ1) -> result_of v = Some res ->
    Ev (MExpr (call (Name "r") [call (Name g) []])) σ (VNone, emit σ1 (EResult res)).
  Proof.
    intros [f H] Hr. exists (S f). unfold call in *. rewrite run_S. cbv [step]. cbn [String.eqb Ascii.eqb Bool.eqb]. rewrite H, Hr. reflexivity.
  Qed.

  (* the context in which the body of  def f(): b  is lowered, and the body of the lambda that f is bound to:
     [retv := None, ret := False, <b'>, retv][-1],  the flag reset only if the flag is used *)
  Definition fun_ctx (fn : nsp) (b : list sk) : ctx := mkCtx fn [] (uses_flag has_ret (map embed b)).
  Definition fun_body (c : ctx) (b' : list expr) : expr :=
    Subscript (EList (NamedExpr (RVname c) cnone :: (if c_ret_used c then [NamedExpr (Rname c) cfalse] else []) ++
                      b' ++ [Name (RVname c)])) minus1.
  Definition result_val (res : option Z) : val := match res with Some k => VProbe k | None => VNone end.

  (* likewise [fun_ctx] records in c_ret_used whether the body uses the return flag *)
  Lemma Covers_fun_body fn b : n_kind fn = NFunction -> Covers (fun_ctx fn b) (map embed b).
  Proof. intros Hfk. unfold Covers, guard_of, flag_used. cbn [fun_ctx c_loops c_nsp c_ret_used]. rewrite Hfk. exact (fun H => H). Qed.

  Lemma fun_lowered g b es : generate_nsp false fun_symtab = inl g ->
    lower_block cfg0 L (mkCtx g [] false) [] 0 0 (fun_program b) = inl es ->
    exists fn b', transparent fn /\ n_kind fn = NFunction /\
      lower_block cfg0 L (fun_ctx fn b) [0; 0] 0 0 (map embed b) = inl b' /\
      es = [NamedExpr "f" (Lambda [] [] None [] [] None [] (fun_body (fun_ctx fn b) b')); call (Name "r") [call (Name "f") []]].
  Proof.
    intros Hg Eblk. destruct fun_nsp as [g' [fn [Hg' [Hk [Hfind [Hfk [_ [Hft [Hzs [Hin [Him Hsp]]]]]]]]]]].
    rewrite Hg in Hg'. injection Hg' as <-.
    (* the two statements follow each other unguarded *)
    destruct (lower_block_cons _ _ _ _ _ _ _ _ _ Eblk) as [es1 [H1 [rs [Hrs ->]]]]. rewrite (guard_global g Hk).
    destruct (lower_block_cons _ _ _ _ _ _ _ _ _ Hrs) as [es2 [H2 ->]].
    (* r(f()) is lowered to itself *)
    unfold L in H2. cbn [lower_stmt c_nsp] in H2. unfold tr, call in H2. cbn [transf rmap rbind ret] in H2.
    unfold get_load_name in H2. rewrite Hk in H2. injection H2 as <-.
    (* def f(), without arguments, decorators, super() or nonlocal names *)
    unfold L in H1. cbn [lower_stmt c_nsp] in H1. rewrite Hfind, Hfk in H1.
    cbn [no_args a_defaults a_kw_defaults a_posonly a_args rmap rbind ret app] in H1. rewrite Hsp in H1. fold L in H1.
    apply rbind_inl in H1 as (b' & Eb & H1). cbn [rev rbind ret] in H1.
    rewrite Hzs, Hin, Him, (get_assign_global _ _ _ Hk) in H1. cbn [rbind ret app cfg_chain cfg0] in H1. injection H1 as <-.
    exists fn, b'. split; [exact Hft|]. split; [exact Hfk|]. split; [exact Eb|reflexivity].
  Qed.

  Lemma fun_body_sim fn b b' p fuel sx σ :
    transparent fn -> n_kind fn = NFunction -> wf_block false true b = true ->
    exec_function orc fuel b = Some sx -> s_tr σ = [] -> s_pos σ = 0 ->
    lower_block cfg0 L (fun_ctx fn b) p 0 0 (map embed b) = inl b' ->
    exists res σ', Ev (MExpr (fun_body (fun_ctx fn b) b')) σ (result_val res, σ') /\
      s_tr (emit σ' (EResult res)) = x_tr sx /\ s_pos σ' = x_pos sx.
  Proof.
    intros Hft Hfk Hwf Hex Tp Pp Eb. set (c := fun_ctx fn b) in *.
    (* the state after the two initialisations, in which the statements of the body run *)
    set (σ1 := setv σ (RVname c) VNone).
    destruct (setv_if_spec (c_ret_used c) σ1 (Rname c) (VBool false)) as [_ [_ [E2 N2]]].
    set (σ2 := setv_if (c_ret_used c) σ1 (Rname c) (VBool false)) in *.
    assert (PreB : Pre c p b (mkSst [] 0) σ2).
    { apply Pre_intro; [exact Hft|exact I| |apply Covers_fun_body, Hfk|exact (conj (Forall_nil _) E2)|].
      - unfold il, ifn. cbn [c fun_ctx c_loops c_nsp]. rewrite Hfk. exact Hwf.
      - apply InStep_setv_if, InStep_setv. exact (conj Tp Pp). }
    unfold exec_function in Hex. destruct (exec orc fuel (XBlock b) (mkSst [] 0)) as [[ob sb]|] eqn:Eex; [|discriminate].
    destruct (proj1 (sim_gen orc fuel) _ _ _ _ Eex c p 0 0 b' σ2 PreB Eb) as [σ' [EvB [Tr' [Po' Pst]]]].
    (* the return value after the body is what the reference semantics reports *)
    assert (Hres : exists res, lookup (s_env σ') (RVname c) = Some (result_val res) /\ sx = xemit sb (EResult res)).
    { assert (R2 : lookup (s_env σ2) (RVname c) = Some VNone) by (rewrite N2 by (apply ol_kind_ne; reflexivity); apply lookup_bind_eq).
      destruct ob; cbn [Post] in Pst; try (exfalso; exact Pst).
      - exists None. split; [|injection Hex as <-; reflexivity]. destruct Pst as [_ RV]. exact (eq_trans RV R2).
      - exists v. split; [|injection Hex as <-; reflexivity]. destruct Pst as [_ [_ RV]]. destruct v; [exact RV|exact (eq_trans RV R2)]. }
    destruct Hres as [res [Hlook ->]]. exists res, σ'. split; [|cbn [emit s_tr xemit x_tr x_pos]; split; congruence].
    unfold fun_body. rewrite app_comm_cons, app_assoc. eapply Ev_last; [|apply Ev_name; exact Hlook].
    eapply EvSeq_app; [|exact EvB]. econstructor; [apply Ev_named; [reflexivity|apply Ev_none]|apply Ev_setv_if].
  Qed.

  Theorem function_simulation : forall fuel b sx e,
    wf_block false true b = true ->
    exec_function orc fuel b = Some sx ->
    lower_module cfg0 fun_symtab (fun_program b) = inl e ->
    exists f v σ', run orc f (MExpr e) (mkSt [] [] 0) = Some (v, σ') /\ s_tr σ' = x_tr sx /\ s_pos σ' = x_pos sx.
  Proof.
    intros fuel b sx e Hwf Hex HL.
    destruct (module_run orc _ _ _ (fun σ' => s_tr σ' = x_tr sx /\ s_pos σ' = x_pos sx) HL) as [g [es [Hg [Eblk Hrun]]]].
    destruct (fun_lowered g b es Hg Eblk) as [fn [b' [Hft [Hfk [Eb ->]]]]].
    apply Hrun. intros σp Tp Pp.
    (* the def binds f to the lambda; the call evaluates its body and hands the value to r *)
    destruct (fun_body_sim fn b b' _ fuel sx (setv σp "f" (VFun (fun_body (fun_ctx fn b) b'))) Hft Hfk Hwf Hex Tp Pp Eb)
      as [res [σ' [Hbody R]]].
    exists (emit σ' (EResult res)). split; [|exact R].
    econstructor; [apply Ev_named; [reflexivity|apply Ev_lambda]|]. eapply EvSeq_one.
    eapply Ev_r_call; [eapply Ev_call_fun; [apply lookup_bind_eq|exact Hbody]|destruct res; reflexivity].
  Qed.
End FunctionSim.
