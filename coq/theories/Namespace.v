(* Model of oneliner/namespaces.py: what CPython's symtable reports (input data), the namespace
   tree built by generate_nsp, and get_assign / get_load_name. *)
From Coq Require Import String Ascii List ZArith NArith Bool Arith.
From OL Require Import Sexp PyAst.
Import ListNotations.
Open Scope string_scope.
Open Scope list_scope.

(* the errors of the converter, by exception class *)
Inductive err := ESyntax | ERuntime | ENotImpl | EAssert | EKey | EAttr | EOther.
Definition err_name (e : err) : string :=
  match e with ESyntax => "SyntaxError" | ERuntime => "RuntimeError" | ENotImpl => "NotImplementedError"
  | EAssert => "AssertionError" | EKey => "KeyError" | EAttr => "AttributeError" | EOther => "Exception" end.
Definition res (X : Type) := (X + err)%type.
Definition ret {X} (x : X) : res X := inl x.
Definition fail {X} (e : err) : res X := inr e.
Definition rbind {X Y} (r : res X) (f : X -> res Y) : res Y :=
  match r with inl x => f x | inr e => inr e end.
Notation "'let!' x ':=' r 'in' k" := (rbind r (fun x => k)) (at level 200, x pattern, r at level 100, k at level 200).

Section RMap.
  Context {X Y : Type} (f : X -> res Y).
  Fixpoint rmap (l : list X) : res (list Y) :=
    match l with
    | [] => ret []
    | x :: r => let! y := f x in let! ys := rmap r in ret (y :: ys)
    end.
End RMap.

Lemma rbind_inl {X Y} (r : res X) (f : X -> res Y) y : rbind r f = inl y -> exists x, r = inl x /\ f x = inl y.
Proof. destruct r as [x|]; [exists x; split; [reflexivity|assumption]|discriminate]. Qed.

Lemma rmap_inv {X Y} (f : X -> res Y) l : forall l', rmap f l = inl l' -> Forall2 (fun x y => f x = inl y) l l'.
Proof.
  induction l as [|x r IH]; intros l' H; cbn [rmap] in H.
  - injection H as <-. constructor.
  - apply rbind_inl in H as (y & Ey & H). apply rbind_inl in H as (ys & Er & H). injection H as <-.
    constructor; [exact Ey|exact (IH ys Er)].
Qed.

Lemma rmap_length {X Y} (f : X -> res Y) l ys : rmap f l = inl ys -> length ys = length l.
Proof. intros H. apply rmap_inv in H. induction H; cbn [length]; [reflexivity|f_equal; assumption]. Qed.

Lemma rmap_map {X Y} (f : X -> res Y) (g : X -> Y) l : Forall (fun x => f x = inl (g x)) l -> rmap f l = inl (map g l).
Proof. induction 1 as [|x r Hx _ IH]; cbn [rmap map]; [|rewrite Hx, IH]; reflexivity. Qed.

Lemma rmap_id {X} (f : X -> res X) l : Forall (fun x => f x = inl x) l -> rmap f l = inl l.
Proof. intros H. rewrite (rmap_map f id l H), map_id. reflexivity. Qed.
Lemma rmap_id_inv {X} (f : X -> res X) l l' : Forall (fun x => f x = inl x) l -> rmap f l = inl l' -> l' = l.
Proof. intros H E. rewrite (rmap_id f l H) in E. injection E as <-. reflexivity. Qed.

Record symbol := mkSym {
  sy_name : ident; sy_assigned : bool; sy_param : bool; sy_global : bool;
  sy_declglobal : bool; sy_nonlocal : bool; sy_free : bool; sy_local : bool }.

Inductive stkind := KModule | KFunction | KClass | KOther.

Inductive symtab :=
  ST (kind : stkind) (name : ident) (lineno : Z) (syms : list symbol)
     (frees nonlocals params methods : list ident) (children : list symtab).

Definition st_kind (t : symtab) := match t with ST k _ _ _ _ _ _ _ _ => k end.
Definition st_name (t : symtab) := match t with ST _ n _ _ _ _ _ _ _ => n end.
Definition st_lineno (t : symtab) := match t with ST _ _ l _ _ _ _ _ _ => l end.
Definition st_syms (t : symtab) := match t with ST _ _ _ s _ _ _ _ _ => s end.
Definition st_frees (t : symtab) := match t with ST _ _ _ _ f _ _ _ _ => f end.
Definition st_nonlocals (t : symtab) := match t with ST _ _ _ _ _ n _ _ _ => n end.
Definition st_params (t : symtab) := match t with ST _ _ _ _ _ _ p _ _ => p end.
Definition st_methods (t : symtab) := match t with ST _ _ _ _ _ _ _ m _ => m end.
Definition st_children (t : symtab) := match t with ST _ _ _ _ _ _ _ _ c => c end.

Definition lookup_sym (syms : list symbol) (n : ident) : option symbol :=
  find (fun s => String.eqb (sy_name s) n) syms.

Definition mem (n : ident) (l : list ident) : bool := existsb (String.eqb n) l.

Definition symbol_of (x : sexp) : option symbol :=
  match x with
  | L [n; a; p; g; dg; nl; fr; lc] =>
      do n' <- ident_of n; do a' <- bool_of a; do p' <- bool_of p; do g' <- bool_of g;
      do dg' <- bool_of dg; do nl' <- bool_of nl; do fr' <- bool_of fr; do lc' <- bool_of lc;
      Some (mkSym n' a' p' g' dg' nl' fr' lc')
  | _ => None
  end.

Fixpoint symtab_of (x : sexp) : option symtab :=
  match x with
  | L [A k; n; ln; L syms; L fr; L nl; L ps; L ms; L ch] =>
      do k' <- (if String.eqb k "module" then Some KModule else if String.eqb k "function" then Some KFunction
                else if String.eqb k "class" then Some KClass else if String.eqb k "other" then Some KOther else None);
      do n' <- ident_of n; do ln' <- z_of ln; do syms' <- mapM symbol_of syms;
      do fr' <- mapM ident_of fr; do nl' <- mapM ident_of nl; do ps' <- mapM ident_of ps; do ms' <- mapM ident_of ms;
      do ch' <- mapM symtab_of ch;
      Some (ST k' n' ln' syms' fr' nl' ps' ms' ch')
  | _ => None
  end.

Inductive nkind := NGlobal | NFunction | NClass.

(* what a namespace knows of an enclosing namespace (outer_nsp links): id, kind, symbols, inner_nonlocal_names,
   outer_nonlocal_map *)
Definition link := (nat * nkind * list symbol * list ident * list (ident * nat))%type.

(* the static part of a namespace: everything generate_nsp computes *)
Inductive nsp :=
  Nsp (id : nat) (kind : nkind) (name : ident) (lineno : Z) (syms : list symbol) (params : list ident)
      (outer_map : list (ident * nat))        (* nonlocal/free name -> id of the function namespace it was born in *)
      (inner_nonlocal : list ident)           (* names captured by inner namespaces *)
      (nonlocal_params : list ident)          (* captured names that are parameters *)
      (is_method zero_super : bool)
      (globals_in_comp : list ident)          (* class only *)
      (inner : list nsp)
      (chain : list link).                    (* the enclosing namespaces, innermost first *)

Definition n_id (n : nsp) := match n with Nsp i _ _ _ _ _ _ _ _ _ _ _ _ _ => i end.
Definition n_kind (n : nsp) := match n with Nsp _ k _ _ _ _ _ _ _ _ _ _ _ _ => k end.
Definition n_name (n : nsp) := match n with Nsp _ _ x _ _ _ _ _ _ _ _ _ _ _ => x end.
Definition n_lineno (n : nsp) := match n with Nsp _ _ _ l _ _ _ _ _ _ _ _ _ _ => l end.
Definition n_syms (n : nsp) := match n with Nsp _ _ _ _ s _ _ _ _ _ _ _ _ _ => s end.
Definition n_params (n : nsp) := match n with Nsp _ _ _ _ _ p _ _ _ _ _ _ _ _ => p end.
Definition n_outer_map (n : nsp) := match n with Nsp _ _ _ _ _ _ m _ _ _ _ _ _ _ => m end.
Definition n_inner_nonlocal (n : nsp) := match n with Nsp _ _ _ _ _ _ _ x _ _ _ _ _ _ => x end.
Definition n_nonlocal_params (n : nsp) := match n with Nsp _ _ _ _ _ _ _ _ x _ _ _ _ _ => x end.
Definition n_is_method (n : nsp) := match n with Nsp _ _ _ _ _ _ _ _ _ b _ _ _ _ => b end.
Definition n_zero_super (n : nsp) := match n with Nsp _ _ _ _ _ _ _ _ _ _ b _ _ _ => b end.
Definition n_globals_in_comp (n : nsp) := match n with Nsp _ _ _ _ _ _ _ _ _ _ _ g _ _ => g end.
Definition n_inner (n : nsp) := match n with Nsp _ _ _ _ _ _ _ _ _ _ _ _ i _ => i end.
Definition n_chain (n : nsp) := match n with Nsp _ _ _ _ _ _ _ _ _ _ _ _ _ c => c end.
(* PendingFunctionDef.__init__ records the definition's positional parameters in the function's namespace
   (first_parameter); generate_nsp leaves symtable's parameter list here *)
Definition set_params (n : nsp) (ps : list ident) : nsp :=
  match n with Nsp i k x l s _ m a b c d g inn ch => Nsp i k x l s ps m a b c d g inn ch end.
Lemma set_params_id n ps : n_id (set_params n ps) = n_id n. Proof. destruct n; reflexivity. Qed.
Lemma set_params_kind n ps : n_kind (set_params n ps) = n_kind n. Proof. destruct n; reflexivity. Qed.
Lemma set_params_syms n ps : n_syms (set_params n ps) = n_syms n. Proof. destruct n; reflexivity. Qed.
Lemma set_params_inner n ps : n_inner (set_params n ps) = n_inner n. Proof. destruct n; reflexivity. Qed.
Lemma set_params_chain n ps : n_chain (set_params n ps) = n_chain n. Proof. destruct n; reflexivity. Qed.
Lemma set_params_outer_map n ps : n_outer_map (set_params n ps) = n_outer_map n. Proof. destruct n; reflexivity. Qed.
Lemma set_params_inner_nonlocal n ps : n_inner_nonlocal (set_params n ps) = n_inner_nonlocal n. Proof. destruct n; reflexivity. Qed.

(* an ancestor on generate_nsp's stack *)
Record anc := mkAnc { an_id : nat; an_kind : nkind; an_syms : list symbol }.

(* a capture recorded on an outer function namespace: (id of that namespace, name, is parameter) *)
Definition mark := (nat * ident * bool)%type.

(* search the origin of a nonlocal/free name: innermost function ancestor in which the name is
   local.  [stack] is innermost first. *)
Fixpoint find_origin (stack : list anc) (n : ident) : res (nat * bool) :=
  match stack with
  | [] => fail ERuntime
  | a :: r =>
      match an_kind a with
      | NClass => find_origin r n
      | NGlobal => fail EAssert          (* assert isinstance(outer, NamespaceFunction) *)
      | NFunction =>
          match lookup_sym (an_syms a) n with
          | None => fail EKey              (* symtable lookup raises KeyError *)
          | Some s =>
              if sy_local s                  (* born where it is local (is_local()) *)
              then ret (an_id a, sy_param s)
              else find_origin r n
          end
      end
  end.

(* NamespaceFunction.__init__: frees then nonlocals, in the order symtable lists them; the implicit
   __class__ of a method (PEP 3135) is skipped and only sets the zero-argument-super flag *)
Fixpoint scan_function (is_method : bool) (stack : list anc) (names : list ident)
  : res (list (ident * nat) * list mark * bool) :=
  match names with
  | [] => ret ([], [], false)
  | n :: r =>
      if is_method && String.eqb n "__class__" then
        let! rest := scan_function is_method stack r in
        match rest with (m, marks, _) => ret (m, marks, true) end
      else
        let! o := find_origin stack n in
        let! rest := scan_function is_method stack r in
        match rest with (m, marks, z) => ret ((n, fst o) :: m, (fst o, n, snd o) :: marks, z) end
  end.

(* NamespaceClass.__init__: every symbol that is nonlocal or free *)
Fixpoint scan_class (stack : list anc) (syms : list symbol) : res (list (ident * nat) * list mark) :=
  match syms with
  | [] => ret ([], [])
  | s :: r =>
      if sy_nonlocal s || sy_free s then
        let! o := find_origin stack (sy_name s) in
        let! rest := scan_class stack r in
        ret ((sy_name s, fst o) :: fst rest, (fst o, sy_name s, snd o) :: snd rest)
      else scan_class stack r
  end.

(* update_globals_from_lambda_or_comp: global symbols of a lambda/comprehension table and of all
   tables below it *)
Fixpoint globals_below (t : symtab) : list ident :=
  match t with
  | ST _ _ _ syms _ _ _ _ ch =>
      map sy_name (filter sy_global syms) ++ flat_map globals_below ch
  end.

Definition is_comp_table (t : symtab) : bool :=
  mem (st_name t) ["listcomp"; "genexpr"; "setcomp"; "dictcomp"] && mem ".0" (st_params t).

(* later dict assignments win (outer_nonlocal_map[name] = outer) *)
Definition assoc_nat (n : ident) (m : list (ident * nat)) : option nat :=
  match find (fun kv => String.eqb (fst kv) n) (rev m) with Some kv => Some (snd kv) | None => None end.

(* Pass 1: the tree with outer maps; ids in pre-order; marks collected.
   [host_lt_312]: comprehension tables exist and are skipped (before 3.12). *)
Fixpoint build (host_lt_312 : bool) (stack : list anc) (parent_kind : nkind) (parent_methods : list ident)
         (next : nat) (t : symtab) {struct t}
  : res (option nsp * list mark * list ident * nat) :=
  (* result: namespace (None when the table is skipped), marks, globals contributed to a class parent, next id *)
  match t with
  | ST k name ln syms frees nonlocals params methods ch =>
    let children := fun (stack' : list anc) (kind' : nkind) (next' : nat) =>
      (fix go (ch : list symtab) (next : nat) : res (list nsp * list mark * list ident * nat) :=
         match ch with
         | [] => ret ([], [], [], next)
         | c :: r =>
             let! x := build host_lt_312 stack' kind' methods next c in
             match x with (on, marks, gl, next1) =>
               let! y := go r next1 in
               match y with (ns, marks2, gl2, next2) =>
                 ret ((match on with Some n => [n] | None => [] end) ++ ns, marks ++ marks2, gl ++ gl2, next2)
               end
             end
         end) ch next' in
    match k with
    | KFunction =>
        if String.eqb name "lambda" || (host_lt_312 && is_comp_table t) then
          ret (None, [], match parent_kind with NClass => globals_below t | _ => [] end, next)
        else
          let is_method := match parent_kind with NClass => mem name parent_methods | _ => false end in
          let! sc := scan_function is_method stack (frees ++ nonlocals) in
          match sc with (omap, marks, zsuper) =>
            let me := mkAnc next NFunction syms in
            let! cs := children (me :: stack) NFunction (S next) in
            match cs with (inner, marks2, _, next') =>
              ret (Some (Nsp next NFunction name ln syms params omap [] [] is_method zsuper [] inner []),
                   marks ++ marks2, [], next')
            end
          end
    | KClass =>
        let! sc := scan_class stack syms in
        let me := mkAnc next NClass syms in
        let! cs := children (me :: stack) NClass (S next) in
        match cs with (inner, marks2, gl, next') =>
          ret (Some (Nsp next NClass name ln syms [] (fst sc) [] [] false false gl inner []),
               snd sc ++ marks2, [], next')
        end
    | _ => ret (None, [], [], next)     (* unknown table kind: warned about and skipped *)
    end
  end.

(* Pass 2: distribute the marks; record the chain of enclosing namespaces *)
Fixpoint fill (marks : list mark) (ch : list link) (n : nsp) : nsp :=
  match n with
  | Nsp i k name ln syms params omap _ _ im zs gl inner _ =>
      let mine := filter (fun m => Nat.eqb (fst (fst m)) i) marks in
      let inl := map (fun m => snd (fst m)) mine in
      Nsp i k name ln syms params omap
          inl
          (map (fun m => snd (fst m)) (filter (fun m => snd m) mine))
          im zs gl (map (fill marks ((i, k, syms, inl, omap) :: ch)) inner) ch
  end.

Definition generate_nsp (host_lt_312 : bool) (root : symtab) : res nsp :=
  match root with
  | ST _ name ln syms _ _ _ methods ch =>
      let me := mkAnc 0 NGlobal syms in
      let! cs :=
        (fix go (ch : list symtab) (next : nat) : res (list nsp * list mark * nat) :=
           match ch with
           | [] => ret ([], [], next)
           | c :: r =>
               let! x := build host_lt_312 [me] NGlobal [] next c in
               match x with (on, marks, _, next1) =>
                 let! y := go r next1 in
                 match y with (ns, marks2, next2) =>
                   ret ((match on with Some n => [n] | None => [] end) ++ ns, marks ++ marks2, next2)
                 end
               end
           end) ch 1 in
      match cs with (inner, marks, _) =>
        ret (fill marks [] (Nsp 0 NGlobal name ln syms [] [] [] [] false false [] inner []))
      end
  end.

(* an injective, underscore-free numeral (Names.ncode_inj, ncode_no_us): binary, least significant bit first ("0" for zero) *)
Fixpoint pos_code (p : positive) : string :=
  match p with
  | xH => "1"
  | xO q => String "0" (pos_code q)
  | xI q => String "1" (pos_code q)
  end.
Definition ncode (n : nat) : string :=
  match N.of_nat n with N0 => "0" | Npos p => pos_code p end.

Definition ol (kind : string) (suffix : string) : ident := ("__ol_" ++ kind ++ "_" ++ suffix)%string.
Definition nonlocal_dict (i : nat) : expr := Name (ol "nonlocal" (ncode i)).
Definition class_dict (i : nat) : expr := Name (ol "classnsp" (ncode i)).
Definition retv_name (i : nat) : ident := ol "retv" (ncode i).
Definition ret_flag (i : nat) : ident := ol "ret" (ncode i).

Definition cstr (s : string) : expr := Constant (CStr (s2t s)).
Definition call (f : expr) (args : list expr) : expr := Call f args [].
Definition setitem (d : expr) (name : ident) (v : expr) : expr :=
  call (Attribute d "__setitem__") [cstr name; v].
Definition globals_call : expr := call (Name "globals") [].

Definition get_assign (n : nsp) (name : ident) (v : expr) : res expr :=
  match n_kind n with
  | NGlobal => ret (NamedExpr name v)
  | NFunction =>
      match lookup_sym (n_syms n) name with
      | None => fail EKey
      | Some s =>
          if sy_declglobal s then ret (setitem globals_call name v)
          else match assoc_nat name (n_outer_map n) with
               | Some o => ret (setitem (nonlocal_dict o) name v)
               | None =>
                   if mem name (n_inner_nonlocal n) then ret (setitem (nonlocal_dict (n_id n)) name v)
                   else ret (NamedExpr name v)
               end
      end
  | NClass =>
      match lookup_sym (n_syms n) name with
      | None => fail EKey
      | Some s =>
          if sy_declglobal s then ret (setitem globals_call name v)
          else match assoc_nat name (n_outer_map n) with
               | Some o => ret (setitem (nonlocal_dict o) name v)
               | None => ret (setitem (class_dict (n_id n)) name v)
               end
      end
  end.

Lemma get_assign_global g x v : n_kind g = NGlobal -> get_assign g x v = inl (NamedExpr x v).
Proof. intros Hg. unfold get_assign. rewrite Hg. reflexivity. Qed.

Definition globals_item (name : ident) : expr := Subscript globals_call (cstr name).

Definition self_link (n : nsp) : link := (n_id n, n_kind n, n_syms n, n_inner_nonlocal n, n_outer_map n).
Definition lk_id (l : link) : nat := match l with (i, _, _, _, _) => i end.
Definition lk_kind (l : link) : nkind := match l with (_, k, _, _, _) => k end.
Definition lk_syms (l : link) : list symbol := match l with (_, _, s, _, _) => s end.
Definition lk_inner_nonlocal (l : link) : list ident := match l with (_, _, _, x, _) => x end.
Definition lk_outer_map (l : link) : list (ident * nat) := match l with (_, _, _, _, m) => m end.

(* get_load_global: a plain name unless a local of an enclosing function (or of the function itself) hides it *)
Fixpoint hidden_by_local (links : list link) (name : ident) : bool :=
  match links with
  | [] => false
  | l :: r =>
      match lk_kind l with
      | NGlobal => false
      | NFunction =>
          match lookup_sym (lk_syms l) name with
          | Some s => if sy_local s then true else hidden_by_local r name
          | None => hidden_by_local r name
          end
      | NClass => hidden_by_local r name
      end
  end.
Definition get_load_global (n : nsp) (name : ident) : expr :=
  if hidden_by_local (self_link n :: n_chain n) name then globals_item name else Name name.

(* NamespaceClass._load_from_enclosing: the lookup of a function nested in the class *)
Fixpoint load_from_enclosing (n : nsp) (links : list link) (name : ident) : expr :=
  match links with
  | [] => get_load_global n name
  | l :: r =>
      match lk_kind l with
      | NGlobal => get_load_global n name
      | NClass => load_from_enclosing n r name
      | NFunction =>
          match lookup_sym (lk_syms l) name with
          | None => load_from_enclosing n r name
          | Some s =>
              if sy_local s then
                if mem name (lk_inner_nonlocal l) then Subscript (nonlocal_dict (lk_id l)) (cstr name) else Name name
              else match assoc_nat name (lk_outer_map l) with
                   | Some o => Subscript (nonlocal_dict o) (cstr name)
                   | None => get_load_global n name
                   end
          end
      end
  end.

(* [bound]: the names bound by the lambdas / comprehensions whose body is being transformed (scope_stack, active
   entries); [inner]: whether there is one *)
Definition get_load_name (n : nsp) (bound : list ident) (inner : bool) (name : ident) : res expr :=
  match n_kind n with
  | NGlobal => ret (Name name)
  | NFunction =>
      if mem name bound then ret (Name name)
      else if mem name (n_inner_nonlocal n) then ret (Subscript (nonlocal_dict (n_id n)) (cstr name))
      else match assoc_nat name (n_outer_map n) with
           | Some o => ret (Subscript (nonlocal_dict o) (cstr name))
           | None =>
               match lookup_sym (n_syms n) name with
               | Some s => if sy_local s then ret (Name name) else ret (get_load_global n name)
               | None => ret (get_load_global n name)
               end
           end
  | NClass =>
      if mem name bound then ret (Name name)
      else if inner then ret (load_from_enclosing n (n_chain n) name)
      else match lookup_sym (n_syms n) name with
           | None => ret (get_load_global n name)
           | Some s =>
               match assoc_nat name (n_outer_map n) with
               | Some o => ret (Subscript (nonlocal_dict o) (cstr name))
               | None =>
                   if sy_global s then ret (get_load_global n name)
                   else ret (IfExp (Compare (cstr name) [In] [class_dict (n_id n)])
                                   (Subscript (class_dict (n_id n)) (cstr name))
                                   (get_load_global n name))
               end
           end
  end.

Lemma get_load_name_bound n bd inn x : mem x bd = true -> get_load_name n bd inn x = inl (Name x).
Proof. intros H. unfold get_load_name. destruct (n_kind n); [reflexivity| |]; rewrite H; reflexivity. Qed.

(* get_load_assigned: where get_assign has just stored the name *)
Definition get_load_assigned (n : nsp) (name : ident) : res expr :=
  match n_kind n with
  | NGlobal => ret (Name name)
  | NFunction =>
      match lookup_sym (n_syms n) name with
      | None => fail EKey
      | Some s =>
          if sy_declglobal s then ret (globals_item name)
          else match assoc_nat name (n_outer_map n) with
               | Some o => ret (Subscript (nonlocal_dict o) (cstr name))
               | None =>
                   if mem name (n_inner_nonlocal n) then ret (Subscript (nonlocal_dict (n_id n)) (cstr name))
                   else ret (Name name)
               end
      end
  | NClass =>
      match lookup_sym (n_syms n) name with
      | None => fail EKey
      | Some s =>
          if sy_declglobal s then ret (globals_item name)
          else match assoc_nat name (n_outer_map n) with
               | Some o => ret (Subscript (nonlocal_dict o) (cstr name))
               | None => ret (Subscript (class_dict (n_id n)) (cstr name))
               end
      end
  end.
