(* C14: an abstract import system.  Module names are lists of components; the world records which modules are
   loaded and the order in which module bodies were executed.  [stmt_*]: the statements' semantics written from the
   language reference (7.11); [op_*]: the semantics of importlib.import_module / __import__ / attribute reads, written
   from the importlib documentation.  The theorems show that the operations the converter emits leave the same
   bindings, the same loaded set and the same execution order as the statements. *)
From Coq Require Import String List Bool Arith.
From OL Require Import Sexp PyAst Namespace Lower.
Import ListNotations.
Open Scope string_scope.
Open Scope list_scope.

Definition modname := list string.

Section Imports.
  Variable exists_mod : modname -> bool.          (* the finder locates the module *)
  Variable has_attr : modname -> string -> bool.  (* the module's own code defines this attribute *)

  Record world := mkW { loaded : list modname; order : list modname (* oldest first *) }.

  Inductive value := VMod (m : modname) | VAttr (m : modname) (a : string).

  Definition mn_eqb (a b : modname) : bool := if list_eq_dec string_dec a b then true else false.
  Definition is_loaded (w : world) (m : modname) : bool := existsb (mn_eqb m) (loaded w).

  (* import one module whose parent is already loaded *)
  Definition load_one (w : world) (m : modname) : option world :=
    if is_loaded w m then Some w
    else if exists_mod m then Some (mkW (loaded w ++ [m]) (order w ++ [m])) else None.

  Fixpoint prefixes_from (pre : modname) (rest : modname) : list modname :=
    match rest with
    | [] => []
    | c :: r => (pre ++ [c]) :: prefixes_from (pre ++ [c]) r
    end.

  Fixpoint load_all (w : world) (ms : list modname) : option world :=
    match ms with
    | [] => Some w
    | m :: r => match load_one w m with Some w1 => load_all w1 r | None => None end
    end.

  (* import a.b.c : parents first *)
  Definition load_chain (w : world) (m : modname) : option world := load_all w (prefixes_from [] m).

  Definition top_of (m : modname) : modname := match m with c :: _ => [c] | [] => [] end.

  Definition op_import_module (w : world) (m : modname) : option (world * value) :=
    match load_chain w m with Some w1 => Some (w1, VMod m) | None => None end.

  (* __import__(name) with an empty fromlist returns the top-level package *)
  Definition op_dunder_import_top (w : world) (m : modname) : option (world * value) :=
    match load_chain w m with Some w1 => Some (w1, VMod (top_of m)) | None => None end.

  (* _handle_fromlist: names that are not attributes are tried as submodules, in fromlist order; a missing
     submodule is not an error here (the attribute read fails later) *)
  Fixpoint handle_fromlist (w : world) (m : modname) (names : list string) : world :=
    match names with
    | [] => w
    | n :: r =>
        if has_attr m n then handle_fromlist w m r
        else match load_one w (m ++ [n]) with
             | Some w1 => handle_fromlist w1 m r
             | None => handle_fromlist w m r
             end
    end.

  (* __import__(name, globals, locals, fromlist, level) with a non-empty fromlist returns the module itself;
     [abs] is the absolute name after resolving `level` against the package *)
  Definition op_dunder_import_from (w : world) (abs : modname) (names : list string) : option (world * value) :=
    match load_chain w abs with
    | Some w1 => Some (handle_fromlist w1 abs names, VMod abs)
    | None => None
    end.

  (* tmp.name *)
  Definition op_getattr (w : world) (m : modname) (n : string) : option value :=
    if has_attr m n then Some (VAttr m n)
    else if is_loaded w (m ++ [n]) then Some (VMod (m ++ [n])) else None.

  Definition binding := (string * value)%type.

  (* import a.b.c          binds a      to the top-level package
     import a.b.c as x     binds x      to the module a.b.c *)
  Definition stmt_import (w : world) (m : modname) (asname : option string) : option (world * list binding) :=
    match load_chain w m with
    | Some w1 =>
        match asname, m with
        | Some x, _ => Some (w1, [(x, VMod m)])
        | None, c :: _ => Some (w1, [(c, VMod [c])])
        | None, [] => None
        end
    | None => None
    end.

  (* from m import n1 as x1, n2 ... : for each identifier in turn - is it an attribute of the module?  if not, try to
     import the submodule and look again; ImportError otherwise *)
  Fixpoint from_names (w : world) (m : modname) (names : list (string * option string)) : option (world * list binding) :=
    match names with
    | [] => Some (w, [])
    | (n, a) :: r =>
        let x := match a with Some y => y | None => n end in
        if has_attr m n then
          match from_names w m r with Some (w', bs) => Some (w', (x, VAttr m n) :: bs) | None => None end
        else
          match load_one w (m ++ [n]) with
          | Some w1 => match from_names w1 m r with Some (w', bs) => Some (w', (x, VMod (m ++ [n])) :: bs) | None => None end
          | None => None
          end
    end.

  Definition stmt_from (w : world) (abs : modname) (names : list (string * option string)) : option (world * list binding) :=
    match load_chain w abs with
    | Some w1 => from_names w1 abs names
    | None => None
    end.

  (* what the converter emits, as a composition of operations:
     import m [as x]  ->  x := importlib.import_module("m")      |      top := __import__("a.b.c") *)
  Definition emitted_import (w : world) (m : modname) (asname : option string) : option (world * list binding) :=
    match asname, m with
    | Some x, _ => match op_import_module w m with Some (w1, v) => Some (w1, [(x, v)]) | None => None end
    | None, [c] => match op_import_module w m with Some (w1, v) => Some (w1, [(c, v)]) | None => None end
    | None, c :: _ :: _ => match op_dunder_import_top w m with Some (w1, v) => Some (w1, [(c, v)]) | None => None end
    | None, [] => None
    end.

  (* tmp := __import__(m, globals(), locals(), [n1, n2, ...], level);  x1 := tmp.n1;  x2 := tmp.n2 ... *)
  Fixpoint emitted_binds (w : world) (m : modname) (names : list (string * option string)) : option (list binding) :=
    match names with
    | [] => Some []
    | (n, a) :: r =>
        let x := match a with Some y => y | None => n end in
        match op_getattr w m n, emitted_binds w m r with
        | Some v, Some bs => Some ((x, v) :: bs)
        | _, _ => None
        end
    end.

  Definition emitted_from (w : world) (abs : modname) (names : list (string * option string)) : option (world * list binding) :=
    match op_dunder_import_from w abs (map fst names) with
    | Some (w1, _) => match emitted_binds w1 abs names with Some bs => Some (w1, bs) | None => None end
    | None => None
    end.

  Theorem import_equiv : forall w m a, emitted_import w m a = stmt_import w m a.
  Proof.
    intros w m a. unfold emitted_import, stmt_import, op_import_module, op_dunder_import_top.
    destruct a as [x|]; destruct m as [|c [|c2 r]]; destruct (load_chain w _); try reflexivity.
  Qed.

  Lemma load_one_cases w m w1 : load_one w m = Some w1 ->
    (is_loaded w m = true /\ w1 = w) \/ w1 = mkW (loaded w ++ [m]) (order w ++ [m]).
  Proof.
    unfold load_one. destruct (is_loaded w m); [|destruct (exists_mod m); [|discriminate]]; intros H; injection H as <-.
    - left. split; reflexivity.
    - right. reflexivity.
  Qed.

  Lemma load_one_keeps w m w1 : load_one w m = Some w1 -> forall x, is_loaded w x = true -> is_loaded w1 x = true.
  Proof.
    intros [[_ ->]| ->]%load_one_cases x Hx; [exact Hx|].
    unfold is_loaded in *. cbn [loaded]. rewrite existsb_app, Hx. reflexivity.
  Qed.

  Lemma load_one_is_loaded w m w1 : load_one w m = Some w1 -> is_loaded w1 m = true.
  Proof.
    intros [[E ->]| ->]%load_one_cases; [exact E|].
    unfold is_loaded. cbn [loaded]. rewrite existsb_app. cbn. unfold mn_eqb at 2. destruct (list_eq_dec string_dec m m); [|contradiction].
    apply orb_true_r.
  Qed.

  Lemma handle_fromlist_keeps w m names x : is_loaded w x = true -> is_loaded (handle_fromlist w m names) x = true.
  Proof.
    revert w. induction names as [|n r IH]; intros w H; cbn; [exact H|].
    destruct (has_attr m n); [apply IH; exact H|].
    destruct (load_one w (m ++ [n])) as [w1|] eqn:E; [apply IH; eapply load_one_keeps; eauto|apply IH; exact H].
  Qed.

  (* the statement's name-by-name processing and the emitted "load everything, then read the attributes" agree *)
  Lemma from_names_equiv : forall names w m w' bs,
    from_names w m names = Some (w', bs) ->
    handle_fromlist w m (map fst names) = w' /\
    forall wf, (forall x, is_loaded w' x = true -> is_loaded wf x = true) -> emitted_binds wf m names = Some bs.
  Proof.
    induction names as [|[n a] r IH]; intros w m w' bs H; cbn in H.
    - injection H as <- <-. split; [reflexivity|]. intros wf _. reflexivity.
    - cbn [map fst handle_fromlist emitted_binds]. destruct (has_attr m n) eqn:Ea.
      + destruct (from_names w m r) as [[w2 bs2]|] eqn:E; [|discriminate]. injection H as <- <-.
        destruct (IH _ _ _ _ E) as [A B]. split; [exact A|]. intros wf Hwf. unfold op_getattr. rewrite Ea, (B wf Hwf). reflexivity.
      + destruct (load_one w (m ++ [n])) as [w1|] eqn:El; [|discriminate].
        destruct (from_names w1 m r) as [[w2 bs2]|] eqn:E; [|discriminate]. injection H as <- <-.
        destruct (IH _ _ _ _ E) as [A B]. split; [exact A|]. intros wf Hwf. unfold op_getattr. rewrite Ea.
        assert (L : is_loaded wf (m ++ [n]) = true).
        { apply Hwf. rewrite <- A. apply handle_fromlist_keeps. eapply load_one_is_loaded. exact El. }
        rewrite L, (B wf Hwf). reflexivity.
  Qed.

  (* whenever the statement succeeds, the emitted code leaves the same world (loaded set and execution order) and the
     same bindings in the same order - for any number of clauses, aliases, attributes and not-yet-imported submodules *)
  Theorem from_equiv : forall w abs names r, stmt_from w abs names = Some r -> emitted_from w abs names = Some r.
  Proof.
    intros w abs names [w' bs] H. unfold stmt_from in H. unfold emitted_from, op_dunder_import_from.
    destruct (load_chain w abs) as [w1|]; [|discriminate].
    destruct (from_names_equiv _ _ _ _ _ H) as [A B]. rewrite A. rewrite (B w' (fun x Hx => Hx)). reflexivity.
  Qed.

  Lemma load_one_order w m w1 : load_one w m = Some w1 -> exists suffix, order w1 = order w ++ suffix.
  Proof.
    intros [[_ ->]| ->]%load_one_cases; [exists []; symmetry; apply app_nil_r|exists [m]; reflexivity].
  Qed.
End Imports.

(* a concrete import system for non-vacuity: pkg, pkg.sub, pkg.mod (which defines `attr`) *)
Definition ex_exists (m : modname) : bool :=
  existsb (fun x => if list_eq_dec string_dec m x then true else false) [["pkg"]; ["pkg"; "sub"]; ["pkg"; "mod"]; ["other"]].
Definition ex_attr (m : modname) (a : string) : bool :=
  (if list_eq_dec string_dec m ["pkg"; "mod"] then true else false) && String.eqb a "attr".

Example from_example :
  stmt_from ex_exists ex_attr (mkW [] []) ["pkg"] [("sub", None); ("mod", Some "m")]
  = Some (mkW [["pkg"]; ["pkg"; "sub"]; ["pkg"; "mod"]] [["pkg"]; ["pkg"; "sub"]; ["pkg"; "mod"]],
          [("sub", VMod ["pkg"; "sub"]); ("m", VMod ["pkg"; "mod"])]).
Proof. reflexivity. Qed.

(* C14: the modules named by ONE import statement are imported in the order written, each by its own expression *)
Definition import_bound (al : ident * option ident) : ident :=
  match snd al with Some a => a | None => if has_dot (fst al) then before_dot (fst al) else fst al end.
Definition import_value (al : ident * option ident) : expr :=
  match snd al with
  | None => if has_dot (fst al) then call (Name "__import__") [cstr (fst al)]
            else call (Attribute (Name "__ol_importlib") "import_module") [cstr (fst al)]
  | Some _ => call (Attribute (Name "__ol_importlib") "import_module") [cstr (fst al)]
  end.

Theorem lower_import_in_order : forall n names, n_kind n = NGlobal ->
  lower_import n names = inl (map (fun al => NamedExpr (import_bound al) (import_value al)) names).
Proof.
  intros n names Hg. apply rmap_map, Forall_forall. intros [nm a] _. unfold import_bound, import_value. cbn [fst snd].
  destruct a as [a|]; [|destruct (has_dot nm)]; apply get_assign_global, Hg.
Qed.

Lemma lower_import_alias g name x : n_kind g = NGlobal ->
  lower_import g [(name, Some x)] = inl [NamedExpr x (call (Attribute (Name "__ol_importlib") "import_module") [cstr name])].
Proof. intros H. exact (lower_import_in_order g _ H). Qed.

Lemma lower_import_plain g name : n_kind g = NGlobal -> has_dot name = false ->
  lower_import g [(name, None)] = inl [NamedExpr name (call (Attribute (Name "__ol_importlib") "import_module") [cstr name])].
Proof.
  intros H Hd. rewrite (lower_import_in_order g _ H). unfold import_bound, import_value. cbn [map fst snd]. rewrite Hd. reflexivity.
Qed.

Lemma lower_import_dotted g name : n_kind g = NGlobal -> has_dot name = true ->
  lower_import g [(name, None)] = inl [NamedExpr (before_dot name) (call (Name "__import__") [cstr name])].
Proof.
  intros H Hd. rewrite (lower_import_in_order g _ H). unfold import_bound, import_value. cbn [map fst snd]. rewrite Hd. reflexivity.
Qed.

Lemma lower_importfrom_shape g p m names lv : n_kind g = NGlobal ->
  forallb (fun al : ident * option ident => negb (String.eqb (fst al) "*")) names = true ->
  lower_importfrom g p m names lv =
  inl (NamedExpr (ol "mod" (path_str p))
         (call (Name "__import__")
            [cstr (match m with Some x => x | None => "" end); call (Name "globals") []; call (Name "locals") [];
             EList (map (fun al => cstr (fst al)) names); cint lv])
       :: map (fun al => NamedExpr (match snd al with Some a => a | None => fst al end)
                                   (Attribute (Name (ol "mod" (path_str p))) (fst al))) names).
Proof.
  intros H Hs. unfold lower_importfrom. cbv zeta. erewrite rmap_map; [reflexivity|].
  apply Forall_forall. intros [nm a] Hal. rewrite forallb_forall in Hs. apply Hs, negb_true_iff in Hal.
  cbn [fst snd] in *. rewrite Hal. apply get_assign_global, H.
Qed.

Lemma lower_importfrom_star g p m lv : lower_importfrom g p m [("*", None)] lv = inr ERuntime.
Proof. reflexivity. Qed.
