From Coq Require Import String List Bool Arith NArith Lia.
From OL Require Import Sexp PyAst Config.
From OLGen Require Import Tables.
Import ListNotations.
Open Scope string_scope.
Open Scope list_scope.

Lemma nth_update_same {X} (l : list X) i f d : i < length l -> nth i (update l i f) d = f (nth i l d).
Proof. revert i; induction l as [|x r IH]; intros [|i] H; cbn in *; try lia; [reflexivity|apply IH; lia]. Qed.

Lemma nth_update_other {X} (l : list X) i j f d : i <> j -> nth j (update l i f) d = nth j l d.
Proof. revert i j; induction l as [|x r IH]; intros [|i] [|j] H; cbn; auto; try (exfalso; lia); try (apply IH; lia). Qed.

Lemma length_update {X} (l : list X) i f : length (update l i f) = length l.
Proof. revert i; induction l as [|x r IH]; intros [|i]; cbn; auto. Qed.

Lemma nth_snoc_default {X} (l : list X) d j : nth j (l ++ [d]) d = nth j l d.
Proof.
  destruct (Nat.lt_ge_cases j (length l)) as [H|H]; [apply app_nth1; exact H|].
  rewrite app_nth2, (nth_overflow l) by exact H. destruct (j - length l) as [|[|k]]; reflexivity.
Qed.

(* the concrete world agrees with the history; an object that does not exist (yet) reads as one with no settings, so a new
   object changes nothing *)
Definition Inv (w : world) (past : list action) : Prop :=
  length w = count_new past /\ forall o n, assoc n (nth o w []) = last_set past o n.

Lemma Inv_keep w past a :
  Inv w past -> count_new (a :: past) = count_new past -> (forall o n, last_set (a :: past) o n = last_set past o n) ->
  Inv w (a :: past).
Proof. intros [Hlen Hs] Hc Hl. split; [rewrite Hc; exact Hlen|]. intros o n. rewrite Hl. apply Hs. Qed.

Lemma step_spec w past a :
  Inv w past -> snd (step w a) = spec_out past a /\ Inv (fst (step w a)) (a :: past).
Proof.
  intros HI. pose proof HI as [Hlen Hs]. destruct a as [|o n v|[o|]|]; cbn [step spec_out].
  - (* ANew *) split; [reflexivity|]. cbn [fst]. split.
    + rewrite app_length; cbn. lia.
    + intros o n. rewrite nth_snoc_default. apply Hs.
  - (* ASet *) rewrite <- Hlen.
    destruct (valid n v && Nat.ltb o (length w)) eqn:E; cbn [fst snd]; (split; [reflexivity|]).
    + split; [rewrite length_update; exact Hlen|].
      intros o' n'. cbn [last_set]. rewrite <- Hlen.
      apply andb_true_iff in E. destruct E as [Ev El].
      destruct (Nat.eqb_spec o' o) as [->|Hne]; cbn [andb].
      * rewrite nth_update_same by (apply Nat.ltb_lt; exact El). cbn [assoc]. rewrite Ev, El. cbn [andb].
        destruct (String.eqb n n'); [reflexivity|apply Hs].
      * rewrite nth_update_other by congruence. apply Hs.
    + apply Inv_keep; [exact HI|reflexivity|]. intros o' n'. cbn [last_set].
      rewrite <- Hlen, <- !andb_assoc, E, !andb_false_r. reflexivity.
  - (* AConvert (Some o) *) rewrite <- Hlen.
    destruct (Nat.ltb_spec o (length w)) as [Hlt|Hge].
    + rewrite (nth_error_nth' w [] Hlt). split; [|apply Inv_keep; [exact HI|reflexivity|reflexivity]].
      cbn [snd]. f_equal. apply map_ext. intros n. rewrite Hs. reflexivity.
    + rewrite (proj2 (nth_error_None w o) Hge). split; [reflexivity|apply Inv_keep; [exact HI|reflexivity|reflexivity]].
  - (* AConvert None *) split; [reflexivity|apply Inv_keep; [exact HI|reflexivity|reflexivity]].
  - (* AReseed *) split; [reflexivity|apply Inv_keep; [exact HI|reflexivity|reflexivity]].
Qed.

Lemma run_spec h : forall w past, Inv w past -> run w h = spec_run past h.
Proof.
  induction h as [|a r IH]; intros w past HI; cbn [run spec_run]; [reflexivity|].
  destruct (step_spec w past a HI) as [Ho HI'].
  destruct (step w a) as [w' o]. cbn [fst snd] in *. rewrite Ho. f_equal. apply IH; exact HI'.
Qed.

(* Every conversion in every history uses exactly the last valid values set on *its own* option
   object (defaults otherwise), and a conversion without options uses the defaults. *)
Theorem history_correct : forall h, run [] h = spec_run [] h.
Proof. intros h. apply run_spec. split; [reflexivity|]. intros [|o] n; reflexivity. Qed.

Corollary convert_none_uses_defaults : forall h1 h2,
  nth_error (run [] (h1 ++ AConvert None :: h2)) (length h1)
  = Some (OEff (map (fun n => (n, default_of n)) opt_names)).
Proof.
  intros h1 h2. rewrite history_correct.
  assert (G : forall past, nth_error (spec_run past (h1 ++ AConvert None :: h2)) (length h1)
                           = Some (OEff (map (fun n => (n, default_of n)) opt_names))).
  { induction h1 as [|a r IH]; intros past; cbn; [reflexivity|]. apply IH. }
  apply G.
Qed.

(* The shared-cell model violates the specification: setting an option on one object changes what
   another object (and a call without options) converts with. *)
Definition witness_history : list action :=
  [ANew; ANew; ASet 0 "unparser" "oneliner"; AConvert (Some 1); AConvert None].

Theorem shared_model_refuted : run_shared (0, []) witness_history <> spec_run [] witness_history.
Proof. vm_compute. discriminate. Qed.

(* non-vacuity: the witness history is handled by the per-instance model as the spec says,
   and it really exercises a valid set followed by conversions. *)
Example witness_per_instance_ok :
  run [] witness_history = spec_run [] witness_history /\
  nth_error (run [] witness_history) 2 = Some (OSet true).
Proof. split; [apply history_correct|vm_compute; reflexivity]. Qed.

(* two checks of the option table generated from the code, made again whenever it is regenerated (history_correct needs
   neither): every default is one of its option's choices, and no option is listed twice *)
Lemma config_table_defaults_valid :
  forallb (fun r => existsb (String.eqb (snd r)) (snd (fst r))) config_table = true.
Proof. vm_compute. reflexivity. Qed.

Lemma config_table_names_distinct : NoDup opt_names.
Proof. vm_compute. repeat constructor; cbn; intuition discriminate. Qed.
