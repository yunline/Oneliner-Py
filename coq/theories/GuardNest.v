(* C17: the mechanism behind the known finding K-guard-clause-nesting.  In the lowering of a block, a statement that can take
   an early exit (`bumps`) puts the lowering of the REST of the block under one test of the exit's flag (`guarded`), and with
   the list wrapper that test is at least one level above everything in the rest - so k guard clauses in one block nest the
   output k levels deep, whatever the statements are. *)
From Coq Require Import String List ZArith Bool Arith Lia.
From OL Require Import PyAst Namespace Lower KSem KSim Depth.
Import ListNotations.

Lemma guarded_adds_a_level flag rs : rs <> [] -> S (heights rs) <= height (guarded cfg_list flag rs).
Proof.
  intros Hne. unfold guarded. rewrite height_IfExp.
  destruct rs as [|x [|y r]]; [contradiction| |].
  - cbn [wrap heights fold_right]. lia.
  - change (wrap cfg_list (x :: y :: r)) with (EList (x :: y :: r)). rewrite height_EList. lia.
Qed.

Theorem each_guard_adds_a_level : forall L c p br i s rest es rs bumps flag,
  rest <> [] -> rs <> [] -> L c (i :: br :: p) s = inl es -> is_interrupt s = false ->
  lower_block cfg_list L c p br (S i) rest = inl rs ->
  guard_of c = (bumps, Some flag) -> bumps s = true ->
  exists out, lower_block cfg_list L c p br i (s :: rest) = inl out /\ S (heights rs) <= heights out.
Proof.
  intros L c p br i s rest es rs bumps flag Hne Hrs HL Hi Hr Hg Hb.
  eexists. split; [eapply block_after_guard; eassumption|].
  etransitivity; [apply (guarded_adds_a_level flag rs Hrs)|].
  apply heights_In. apply List.in_or_app. right. left. reflexivity.
Qed.

(* the family of the finding, computed on the converter model: k guard clauses `if c(1): break` followed by one statement in a
   while body - the height of the module's expression grows by TWO per guard (the test and the list display of the rest): 2k + 5 *)
Definition guards_prog (k : nat) : list stmt := [SWhile (probe "c" 0) (repeat guard_stmt k ++ marks 1) []].
Definition guards_height (k : nat) : option nat :=
  match lower_module cfg_list top_symtab (guards_prog k) with inl e => Some (height e) | inr _ => None end.

Example guards_height_grows :
  map guards_height [1; 2; 3; 4; 10; 30] = [Some 7; Some 9; Some 11; Some 13; Some 25; Some 65].
Proof. vm_compute. reflexivity. Qed.
