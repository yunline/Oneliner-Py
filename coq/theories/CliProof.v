From Coq Require Import String Ascii List Bool Arith.
From OL Require Import Sexp PyAst Config Cli.
From OLGen Require Import Tables.
Import ListNotations.
Open Scope string_scope.
Open Scope list_scope.

Lemma apply_C_spec s a :
  if good_C a then exists k v, split_eq a "" = [k; v] /\ apply_C s a = inl ((k, v) :: s)
  else exists e, apply_C s a = inr e /\ e <> VOk.
Proof.
  unfold good_C, apply_C. destruct (split_eq a "") as [|k [|v [|x r]]];
    try (eexists; split; [reflexivity|discriminate]).
  destruct (existsb (String.eqb k) opt_names); cbn [andb negb].
  - destruct (valid k v).
    + exists k, v. split; reflexivity.
    + eexists; split; [reflexivity|discriminate].
  - eexists; split; [reflexivity|discriminate].
Qed.

Lemma apply_all_spec : forall cs s,
  if forallb good_C cs
  then apply_all s cs = inl (rev (flat_map (fun a => match split_eq a "" with [k; v] => [(k, v)] | _ => [] end) cs) ++ s)
  else exists e, apply_all s cs = inr e /\ e <> VOk.
Proof.
  induction cs as [|a r IH]; intros s; cbn [forallb apply_all flat_map]; [reflexivity|].
  pose proof (apply_C_spec s a) as Ha. destruct (good_C a); cbn [andb].
  - destruct Ha as (k & v & Hsp & ->). rewrite Hsp. specialize (IH ((k, v) :: s)).
    destruct (forallb good_C r); [|exact IH]. rewrite IH, rev_app_distr, <- app_assoc. reflexivity.
  - destruct Ha as (e & -> & He). exists e. split; [reflexivity|exact He].
Qed.

Lemma existsb_negb {X} (f : X -> bool) l : existsb (fun a => negb (f a)) l = negb (forallb f l).
Proof. induction l as [|a r IH]; cbn [existsb forallb]; [reflexivity|]. rewrite IH, negb_andb. reflexivity. Qed.

Lemma assoc_app n (l1 l2 : settings) :
  assoc n (l1 ++ l2) = match assoc n l1 with Some v => Some v | None => assoc n l2 end.
Proof. induction l1 as [|[k v] r IH]; cbn [app assoc]; [reflexivity|]. destruct (String.eqb k n); [reflexivity|exact IH]. Qed.

(* If ANY -C argument is malformed, names an unknown option or gives an illegal value, the run is an
   error and the effect trace is empty: in particular the output file is neither opened nor written. *)
Theorem bad_option_no_output : forall cs unp out,
  existsb (fun a => negb (good_C a)) cs = true ->
  fst (cli cs unp out) <> VOk /\ snd (cli cs unp out) = [].
Proof.
  intros cs unp out H. rewrite existsb_negb in H. apply negb_true_iff in H.
  pose proof (apply_all_spec cs []) as Hs. rewrite H in Hs. destruct Hs as (e & He & Hne).
  unfold cli. rewrite He. split; [exact Hne|reflexivity].
Qed.

(* Otherwise: read, then (open + write | print) exactly the text for the accumulated options *)
Theorem good_options_effects : forall cs unp out,
  forallb good_C cs = true ->
  exists s, apply_all [] cs = inl s /\
    cli cs unp out =
      (VOk, FRead :: (let s' := match unp with Some u => ("unparser", u) :: s | None => s end in
                      if out then [FOpenOut; FWrite s'] else [FPrint s'])).
Proof.
  intros cs unp out H. pose proof (apply_all_spec cs []) as Hs. rewrite H in Hs.
  eexists. split; [exact Hs|]. unfold cli. rewrite Hs. reflexivity.
Qed.

Corollary output_touched_only_on_success : forall cs unp out,
  existsb touches_output (snd (cli cs unp out)) = true -> fst (cli cs unp out) = VOk /\ out = true.
Proof.
  intros cs unp out. unfold cli. destruct (apply_all [] cs) as [s|v]; cbn; [|discriminate].
  destruct out; cbn; [auto|discriminate].
Qed.

(* a later -C argument for a name wins (the pairs given are reversed, newest first, and assoc takes the first); a name not
   given reads as it did in the settings s the run started from *)
Lemma apply_all_settings : forall cs s s', apply_all s cs = inl s' ->
  forall n, assoc n s' = match assoc n (rev (flat_map (fun a => match split_eq a "" with [k; v] => [(k, v)] | _ => [] end) cs)) with
                         | Some v => Some v | None => assoc n s end.
Proof.
  intros cs s s' H n. pose proof (apply_all_spec cs s) as Hs. destruct (forallb good_C cs).
  - rewrite Hs in H. injection H as <-. apply assoc_app.
  - destruct Hs as (e & He & _). rewrite He in H. discriminate H.
Qed.

Example cli_witness_bad : cli ["unparser=oneliner"; "config_names=x"] None true = (VValueError, []).
Proof. vm_compute. reflexivity. Qed.
Example cli_witness_good :
  exists s, cli ["unparser=oneliner"; "if_style=short_circuit"] None true = (VOk, [FRead; FOpenOut; FWrite s])
            /\ eff_of s = [("unparser", "oneliner"); ("expr_wrapper", "chain_call"); ("if_style", "short_circuit")].
Proof. eexists. split; vm_compute; reflexivity. Qed.
