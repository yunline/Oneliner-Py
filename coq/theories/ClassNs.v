(* C12: class members.  The converter runs the class body against a dictionary (stores become
   __setitem__ calls in body order) and then installs the dictionary's items on the already created class
   with setattr, in the dictionary's order.  Here: an insertion-ordered map with overwrite-in-place (Python's
   dict and class namespace), and the theorem that replaying the final items reproduces the map; plus the shape
   of the class header produced by the converter model. *)
From Coq Require Import String List ZArith Bool Arith.
From OL Require Import Sexp PyAst Namespace Lower.
Import ListNotations.
Open Scope string_scope.
Open Scope list_scope.

Section OrderedMap.
  Variable V : Type.
  Definition omap := list (ident * V).

  (* d[k] = v : overwrite keeps the position, a new key goes last *)
  Fixpoint ostore (d : omap) (k : ident) (v : V) : omap :=
    match d with
    | [] => [(k, v)]
    | (k', v') :: r => if String.eqb k' k then (k', v) :: r else (k', v') :: ostore r k v
    end.

  Definition run_stores (stores : list (ident * V)) (d : omap) : omap :=
    fold_left (fun acc kv => ostore acc (fst kv) (snd kv)) stores d.

  Definition keys (d : omap) : list ident := map fst d.

  Lemma ostore_keys_in d k v x : List.In x (keys (ostore d k v)) <-> x = k \/ List.In x (keys d).
  Proof.
    induction d as [|[k' v'] r IH]; cbn.
    - split; [intros [<-|[]]; auto|intros [->|[]]; auto].
    - destruct (String.eqb_spec k' k) as [->|Hne]; cbn [keys map fst List.In] in *.
      + intuition auto.
      + rewrite IH. tauto.
  Qed.

  Lemma ostore_nodup d k v : NoDup (keys d) -> NoDup (keys (ostore d k v)).
  Proof.
    induction d as [|[k' v'] r IH]; intros H; cbn.
    - constructor; [intros []|constructor].
    - inversion H as [|? ? Hn Hr]; subst. destruct (String.eqb_spec k' k) as [->|Hne]; cbn.
      + constructor; assumption.
      + constructor; [|apply IH; exact Hr]. intros Hi. apply ostore_keys_in in Hi. destruct Hi as [->|Hi]; [congruence|contradiction].
  Qed.

  Lemma run_stores_nodup stores : forall d, NoDup (keys d) -> NoDup (keys (run_stores stores d)).
  Proof. induction stores as [|[k v] r IH]; intros d H; cbn; [exact H|]. apply IH. apply ostore_nodup. exact H. Qed.

  Lemma ostore_fresh d k v : ~ List.In k (keys d) -> ostore d k v = d ++ [(k, v)].
  Proof.
    induction d as [|[k' v'] r IH]; intros H; cbn; [reflexivity|].
    destruct (String.eqb_spec k' k) as [->|Hne]; [exfalso; apply H; left; reflexivity|].
    f_equal. apply IH. intros Hi. apply H. right. exact Hi.
  Qed.

  Lemma replay_append l : forall d, NoDup (keys l) -> (forall x, List.In x (keys l) -> ~ List.In x (keys d)) ->
    run_stores l d = d ++ l.
  Proof.
    induction l as [|[k v] r IH]; intros d Hn Hd; cbn; [rewrite app_nil_r; reflexivity|].
    inversion Hn as [|? ? Hk Hr]; subst.
    rewrite ostore_fresh by (apply Hd; left; reflexivity).
    rewrite IH; [rewrite <- app_assoc; reflexivity|exact Hr|].
    intros x Hx Hi. unfold keys in Hi. rewrite map_app in Hi. apply in_app_or in Hi. destruct Hi as [Hi|[<-|[]]].
    - exact (Hd x (or_intror Hx) Hi).
    - exact (Hk Hx).
  Qed.

  (* Run the body's stores against a dictionary, then install the dictionary's items in order on an
     object without those attributes: the object's ordered attribute map IS the dictionary (same keys, same final
     values - last write wins -, same first-insertion order), for every sequence of stores. *)
  Theorem members_replay : forall stores, run_stores (run_stores stores []) [] = run_stores stores [].
  Proof.
    intros stores. rewrite replay_append; [reflexivity| |intros x _ []].
    apply run_stores_nodup. constructor.
  Qed.

  Fixpoint olookup (d : omap) (k : ident) : option V :=
    match d with [] => None | (k', v) :: r => if String.eqb k' k then Some v else olookup r k end.

  Lemma olookup_ostore d k v x : olookup (ostore d k v) x = if String.eqb k x then Some v else olookup d x.
  Proof.
    induction d as [|[k' v'] r IH]; cbn.
    - reflexivity.
    - destruct (String.eqb_spec k' k) as [->|Hne]; cbn.
      + destruct (String.eqb k x); reflexivity.
      + rewrite IH. destruct (String.eqb_spec k' x) as [->|]; [|reflexivity].
        destruct (String.eqb_spec k x) as [->|]; [congruence|reflexivity].
  Qed.

  Theorem last_write_wins : forall stores d k v, olookup (run_stores (stores ++ [(k, v)]) d) k = Some v.
  Proof.
    intros stores d k v. unfold run_stores. rewrite fold_left_app. cbn. rewrite olookup_ostore, String.eqb_refl. reflexivity.
  Qed.
End OrderedMap.

Theorem classdef_shape : forall cfg c p name ln bases kws body decs es,
  lower_stmt cfg c p (SClassDef name ln bases kws body decs) = inl es ->
  exists cn bases' kws' create load rest,
    find_inner (c_nsp c) name ln = Some cn /\ n_kind cn = NClass /\
    rmap (tr (c_nsp c)) bases = inl bases' /\
    rmap (fun kw => let! v := tr (c_nsp c) (snd kw) in ret (fst kw, v)) kws = inl kws' /\
    get_assign (c_nsp c) name (class_create p name bases' kws') = inl create /\
    get_load_name (c_nsp c) [] false name = inl load /\
    es = create :: rest.
Proof.
  intros cfg c p name ln bases kws body decs es H. cbn [lower_stmt] in H.
  destruct (find_inner (c_nsp c) name ln) as [cn|] eqn:Ef; [|discriminate].
  destruct (n_kind cn) eqn:Ek; try discriminate.
  apply rbind_inl in H as (b' & _ & H). apply rbind_inl in H as (bs & Eb & H). apply rbind_inl in H as (ks & Ekw & H).
  apply rbind_inl in H as (cr & Ec & H). apply rbind_inl in H as (ld & El & H). apply rbind_inl in H as (dec & _ & H).
  injection H as <-. eexists cn, bs, ks, cr, ld, _. repeat split; assumption.
Qed.

(* the whole statement list of a class statement: creation, the loader (class body run against a dictionary), installation of
   the dictionary's items on the created class, and only THEN the decorators - the last listed first, each applied to the
   class name as it is bound at that moment and rebinding it *)
Theorem classdef_decorators_last : forall cfg c p name ln bases kws body decs es,
  lower_stmt cfg c p (SClassDef name ln bases kws body decs) = inl es ->
  exists create loader_body load decorated,
    get_load_name (c_nsp c) [] false name = inl load /\
    rmap (fun d => let! d' := tr (c_nsp c) d in get_assign (c_nsp c) name (call d' [load])) (rev decs) = inl decorated /\
    length decorated = length decs /\
    es = [create;
          NamedExpr (ol "loader" (path_str p)) loader_body;
          ListComp (call (Name "setattr") [load; Name (ol "key" (path_str p)); Name (ol "value" (path_str p))])
                   [(ETuple [Name (ol "key" (path_str p)); Name (ol "value" (path_str p))],
                     call (Attribute (call (Name (ol "loader" (path_str p))) []) "items") [], [], false)]]
         ++ decorated.
Proof.
  intros cfg c p name ln bases kws body decs es H. cbn [lower_stmt] in H.
  destruct (find_inner (c_nsp c) name ln) as [cn|]; [|discriminate]. destruct (n_kind cn); try discriminate.
  apply rbind_inl in H as (b' & _ & H). apply rbind_inl in H as (bs & _ & H). apply rbind_inl in H as (ks & _ & H).
  apply rbind_inl in H as (cr & _ & H). apply rbind_inl in H as (ld & El & H). apply rbind_inl in H as (dec & Ed & H).
  injection H as <-. eexists cr, _, ld, dec. split; [exact El|]. split; [exact Ed|]. split; [|reflexivity].
  rewrite (rmap_length _ _ _ Ed). apply rev_length.
Qed.

Example members_example :
  run_stores nat [("a", 1); ("b", 2); ("a", 3); ("c", 4); ("b", 5)] [] = [("a", 3); ("b", 5); ("c", 4)].
Proof. reflexivity. Qed.
