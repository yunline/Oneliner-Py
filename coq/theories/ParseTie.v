(* C03: the printer of the round-trip theorem (Parse.pp) IS the unparser model (Unparse.utoks) on the core: the unparser's
   fragments, split into words (Parse.norm), are exactly the tokens pp prints.  With ParseProof.roundtrip_core_top this makes
   the round trip a theorem about the tokens of the model that is tied to expr_unparse.py by string equality. *)
From Coq Require Import String Ascii List ZArith NArith Bool Arith Lia.
From OL Require Import PyAst Unparse.
From OL Require Import Parse ParseProof.
From OLGen Require Import Tables.
Import ListNotations.
Local Open Scope string_scope.
Local Open Scope list_scope.

Lemma norm_app a b : norm (a ++ b) = norm a ++ norm b.
Proof. unfold norm. apply flat_map_app. Qed.
Lemma norm_cons t r : norm (t :: r) = norm_tok t ++ norm r.
Proof. reflexivity. Qed.
Lemma norm_nil : norm [] = [].
Proof. reflexivity. Qed.
Lemma norm_paren b ts : norm (paren b ts) = pparen b (norm ts).
Proof. destruct b; [|reflexivity]. unfold paren, pparen. rewrite norm_cons, norm_app. reflexivity. Qed.
Lemma norm_join sep : forall ls, norm (join sep ls) = join (norm sep) (map norm ls).
Proof.
  destruct ls as [|x l]; [reflexivity|]. cbn [map]. rewrite !join_flat, norm_app. f_equal.
  unfold seps. induction l as [|y l IH]; [reflexivity|]. cbn [map flat_map]. rewrite !norm_app, IH. reflexivity.
Qed.
Lemma join_nil {X} (ls : list (list X)) : join [] ls = concat ls.
Proof. destruct ls as [|x l]; [reflexivity|]. rewrite join_flat. unfold seps. rewrite flat_map_concat_map, map_id. reflexivity. Qed.

Lemma map_guard {X Y} (P : X -> Prop) (b : X -> bool) (f g : X -> Y) l :
  (forall x, P x -> b x = true -> f x = g x) -> Forall P l -> forallb b l = true -> map f l = map g l.
Proof. intros Hfg HF Hb. apply map_ext_Forall. exact (Forall_guard P _ b l Hfg HF Hb). Qed.

Lemma flat_map_guard {X Y} (P : X -> Prop) (b : X -> bool) (f g : X -> list Y) l :
  (forall x, P x -> b x = true -> f x = g x) -> Forall P l -> forallb b l = true -> flat_map f l = flat_map g l.
Proof. intros Hfg HF Hb. rewrite !flat_map_concat_map, (map_guard P b f g l Hfg HF Hb). reflexivity. Qed.

Lemma norm_flat_map {X} (f : X -> list tok) l : norm (flat_map f l) = flat_map (fun x => norm (f x)) l.
Proof. induction l as [|x l IH]; [reflexivity|]. cbn [flat_map]. rewrite norm_app, IH. reflexivity. Qed.

Lemma ntp_binop o : norm_tok (TP (binop_text o)) = [PK (binop_text o)].
Proof. destruct o; reflexivity. Qed.
Lemma ntp_boolop o : norm_tok (TP (" " ++ boolop_text o ++ " ")) = [PK (bool_key o)].
Proof. destruct o; reflexivity. Qed.
Lemma ntp_unop o : norm_tok (TP (unop_text o)) = [PK (unop_key o)].
Proof. destruct o; reflexivity. Qed.
Lemma ntp_cmpop o : norm_tok (TP (cmpop_text o)) = map PK (cmp_keys o).
Proof. destruct o; reflexivity. Qed.

(* [nrm] pushes [norm] to the single fragments and splits each fragment into its words: operator texts by the lemmas above,
   fixed texts by evaluation *)
Ltac nrm :=
  repeat (rewrite norm_app || rewrite norm_cons || rewrite norm_nil);
  rewrite ?ntp_binop, ?ntp_boolop, ?ntp_unop, ?ntp_cmpop;
  cbn [norm_tok words words_go String.eqb Ascii.eqb Bool.eqb andb append map app].

(* what the statement covers: the core, a slice as the index of a subscript, a generator expression as an only argument or a group *)
Definition ecb (x : expr) : bool := core x && negb (is_starred x).
Definition ocb (o : option expr) : bool := match o with Some x => ecb x | None => true end.
Definition cok (e : expr) : bool :=
  match e with
  | Slice a b c => ocb a && ocb b && ocb c
  | GeneratorExp _ _ => gen_core e
  | _ => core e
  end.
Definition T (e : expr) : Prop := forall slot, cok e = true -> norm (utoks slot DQ e) = pp slot e.

Lemma core_cok e : core e = true -> cok e = true.
Proof. destruct e; intro H; try exact H; discriminate H. Qed.
Lemma ecb_cok e : ecb e = true -> cok e = true.
Proof. intro H. apply andb_prop in H as [H _]. apply core_cok. exact H. Qed.
Lemma icore_cok x : icore x = true -> cok x = true.
Proof. destruct x; try exact (ecb_cok _). exact (fun H => H). Qed.

(* for a tuple also the statements of its items (an index tuple with slices is not itself in the core) *)
Definition T2 (e : expr) : Prop := T e /\ match e with ETuple items => Forall T items | _ => True end.

Lemma T2_ecb e slot : T2 e -> ecb e = true -> norm (utoks slot DQ e) = pp slot e.
Proof. intros [H _] Hc. exact (H slot (ecb_cok e Hc)). Qed.

Lemma tie_map (b : expr -> bool) (Hb : forall x, b x = true -> cok x = true) s l :
  Forall T2 l -> forallb b l = true -> map norm (map (utoks s DQ) l) = map (pp s) l.
Proof. rewrite map_map. apply map_guard. intros x [Hx _] Hc. exact (Hx s (Hb x Hc)). Qed.

(* [utoks] as [cbn [utoks]] leaves it where it is handed to the helpers of Unparse.v *)
Local Notation U := (fun (s : nat) (q0 : N) (x : expr) => utoks s q0 x).

Lemma tie_cmp : forall cs ops, Forall T2 cs -> forallb ecb cs = true ->
  norm (compare_toks U DQ cs ops) = ctoks cs ops.
Proof.
  induction cs as [|c r IH]; intros ops HF Hc; [reflexivity|]. destruct ops as [|o ops']; [reflexivity|].
  inversion HF as [|? ? Hx Hr]; subst. cbn [forallb] in Hc. apply andb_prop in Hc as [Hcx Hcr].
  cbn [compare_toks ctoks]. nrm. rewrite (T2_ecb _ _ Hx Hcx), (IH ops' Hr Hcr). reflexivity.
Qed.

Lemma tie_dict : forall ks vs, Forall (Po T2) ks -> Forall T2 vs ->
  forallb ocb ks = true -> forallb ecb vs = true ->
  map norm (dict_toks U DQ ks (map (fun x => utoks slot_Dict_value DQ x) vs) (map (fun x => utoks slot_Dict_starvalue DQ x) vs))
  = ditems ks vs.
Proof.
  unfold ditems. induction ks as [|k ks' IH]; intros vs Hk Hv Hck Hcv; [reflexivity|].
  destruct vs as [|v vs']; [destruct k; reflexivity|].
  inversion Hk as [|? ? Hk1 Hk2]; subst. inversion Hv as [|? ? Hv1 Hv2]; subst.
  cbn [forallb] in Hck, Hcv. apply andb_prop in Hck as [Hck1 Hck2]. apply andb_prop in Hcv as [Hcv1 Hcv2].
  destruct k as [k|]; cbn [map dict_toks ditems_t]; nrm; rewrite ?(T2_ecb _ _ Hk1 Hck1), !(T2_ecb _ _ Hv1 Hcv1), (IH vs' Hk2 Hv2 Hck2 Hcv2);
    reflexivity.
Qed.

Lemma tie_comps gs : Pg T2 gs -> forallb gcore gs = true -> norm (comps_toks U DQ gs) = gtoks gs.
Proof.
  unfold comps_toks, gtoks. rewrite norm_join. change (norm [TP " "]) with (@nil pt).
  rewrite join_nil, map_map, <- flat_map_concat_map. apply flat_map_guard.
  intros [[[t i] ifs] a] (Ht & Hi & Hifs) Hg. apply gcore_inv in Hg as (Hct & _ & Hci & _ & Hcifs & ->).
  unfold comp_toks, gtok. nrm.
  rewrite (proj1 Ht _ (core_cok _ Hct)), (proj1 Hi _ (core_cok _ Hci)), norm_flat_map. do 4 f_equal.
  revert Hifs Hcifs. apply flat_map_guard. intros c Hc Hcc. nrm. rewrite (T2_ecb _ _ Hc Hcc). reflexivity.
Qed.

(* lambda parameter lists: the unparser's attach_defaults / attach_kwdefaults are the items of Parse.litems *)
Definition itoks_u (i : pitem (list tok)) : list tok :=
  match i with
  | IName x None => [TName x]
  | IName x (Some d) => [TName x] ++ TP "=" :: d
  | ISlash => [TP "/"]
  | IStar None => [TP "*"]
  | IStar (Some v) => [TP "*"; TName v]
  | IDStar k => [TP "**"; TName k]
  end.
Lemma attach_zipd : forall names ds, length ds <= length names ->
  attach_defaults (map (fun n => [TName n]) names) ds = map itoks_u (zipd names (length names - length ds) ds).
Proof.
  induction names as [|x r IH]; intros ds Hl; [reflexivity|]. cbn [map attach_defaults length]. rewrite map_length.
  destruct (Nat.leb (length ds) (length r)) eqn:E.
  - apply Nat.leb_le in E. replace (S (length r) - length ds) with (S (length r - length ds)) by lia.
    cbn [zipd map itoks_u]. rewrite (IH ds E). reflexivity.
  - apply Nat.leb_gt in E. cbn [length] in Hl. destruct ds as [|d ds']; [cbn [length] in E; lia|]. cbn [length] in *.
    replace (S (length r) - S (length ds')) with 0 by lia. cbn [zipd map itoks_u].
    assert (Hl' : length ds' <= length r) by lia. rewrite (IH ds' Hl'). replace (length r - length ds') with 0 by lia. reflexivity.
Qed.
Lemma attach_zipk : forall ko kd,
  attach_kwdefaults (map (fun n => [TName n]) ko) kd = map itoks_u (zipk ko kd).
Proof.
  induction ko as [|k r IH]; intros kd; [destruct kd as [|[d|] kd']; reflexivity|].
  destruct kd as [|[d|] kd']; cbn [map attach_kwdefaults zipk itoks_u].
  - rewrite <- (IH []). destruct r; reflexivity.
  - rewrite IH. reflexivity.
  - rewrite IH. reflexivity.
Qed.
Lemma lambda_items po ar va ko kw (de : list (list tok)) (kd : list (option (list tok))) :
  length de <= length (po ++ ar) ->
  (match po with
   | [] => attach_defaults (map (fun n => [TName n]) (po ++ ar)) de
   | _ :: _ => firstn (length po) (attach_defaults (map (fun n => [TName n]) (po ++ ar)) de) ++
               [TP "/"] :: skipn (length po) (attach_defaults (map (fun n => [TName n]) (po ++ ar)) de)
   end ++
   match va with Some n => [[TP "*"; TName n]] | None => match ko with [] => [] | _ :: _ => [[TP "*"]] end end ++
   attach_kwdefaults (map (fun n => [TName n]) ko) kd ++
   match kw with Some n => [[TP "**"; TName n]] | None => [] end)
  = map itoks_u (litems po ar va ko kw de kd).
Proof.
  intros Hl. rewrite (attach_zipd _ _ Hl), attach_zipk. unfold litems. rewrite !map_app. f_equal.
  - destruct po; [reflexivity|]. rewrite map_app, firstn_map. cbn [map itoks_u]. rewrite skipn_map. reflexivity.
  - f_equal; [destruct va; [reflexivity|destruct ko; reflexivity]|]. f_equal. destruct kw; reflexivity.
Qed.
Lemma norm_itoks_u i : norm (itoks_u i) = itoks_l (imap norm i).
Proof. destruct i as [x [d|]| |[v|]|k]; reflexivity. Qed.
Lemma norm_params (X : list (list tok)) :
  norm (match X with [] => [] | _ :: _ => TP " " :: join [TP ","] X end) = join [PK ","] (map norm X).
Proof. destruct X as [|x r]; [reflexivity|]. rewrite norm_cons, norm_join. reflexivity. Qed.

Lemma no_slice : forall items, forallb core items = true ->
  existsb (fun x => match x with Slice _ _ _ => true | _ => false end) items = false.
Proof.
  induction items as [|x r IH]; intro H; [reflexivity|]. cbn [forallb] in H. apply andb_prop in H as [Hx Hr].
  cbn [existsb]. rewrite (IH Hr). destruct x; try reflexivity. discriminate Hx.
Qed.

(* the test as [utoks] writes it out *)
Lemma existsb_is_slice items :
  existsb (fun x => match x with Slice _ _ _ => true | _ => false end) items = existsb is_slice items.
Proof. reflexivity. Qed.

Lemma sub_cok v s : core (Subscript v s) = true ->
  ecb v = true /\
  ((exists items, s = ETuple items /\ existsb is_slice items = true /\ forallb icore items = true) \/
   (index_toks s = pp slot_Subscript_slice s /\ cok s = true /\
    match s with ETuple items => existsb is_slice items = false | _ => True end)).
Proof.
  cbn [core]. intro H. apply andb_prop in H as [Hv Hs]. split; [exact Hv|].
  destruct s; try (right; split; [reflexivity|split; [apply ecb_cok; exact Hs|exact I]]).
  - destruct (existsb is_slice elts) eqn:E.
    + left. exists elts. split; [reflexivity|]. split; [exact E|exact Hs].
    + right. unfold index_toks. rewrite E. split; [reflexivity|]. split; [apply ecb_cok; exact Hs|reflexivity].
  - right. split; [reflexivity|]. split; [exact Hs|exact I].
Qed.

Lemma tie_kws (kws : list (option ident * expr)) : Forall (fun kw => T2 (snd kw)) kws ->
  forallb (fun kw => ecb (snd kw)) kws = true -> map norm (map (kw_toks U DQ) kws) = map kwp kws.
Proof.
  rewrite map_map. apply map_guard. intros [[k|] v] Hx Hc; unfold kw_toks, kwp; cbn [fst snd] in *; nrm; rewrite (T2_ecb _ _ Hx Hc); reflexivity.
Qed.

Lemma tie_kd kd : Forall (Po T2) kd -> forallb ocb kd = true ->
  map (option_map norm) (map (fun d => match d with Some x => Some (utoks slot_Lambda_kwdefault DQ x) | None => None end) kd)
  = map (fun o => match o with Some x => Some (pp slot_Lambda_kwdefault x) | None => None end) kd.
Proof.
  rewrite map_map. apply map_guard. intros [x|] Hx Hc; [|reflexivity]. cbn [option_map]. rewrite (T2_ecb _ _ Hx Hc). reflexivity.
Qed.

Lemma tie_opt s (o : option expr) : Po T2 o -> ocb o = true ->
  norm (match o with Some x => utoks s DQ x | None => [] end) = match o with Some x => pp s x | None => [] end.
Proof. destruct o as [x|]; [apply T2_ecb|reflexivity]. Qed.

Theorem tie_all2 : forall e, T2 e.
Proof.
  induction e as [i | c | vs IHitems | v conv spec IHv IHspec | v IHv | l o r IHl IHr | o vs IHvs | o v IHv | l IHl | l IHitems | l IHl
                 | ks vs IHks IHvs | l ops cs IHl IHcs | v a IHv | v s IHv IHs | a b c IHa IHb IHc | f args kws IHf IHargs IHkws
                 | t v IHv | po ar va ko kd kw de body IHkd IHde IHbody | x gs IHx IHgs | x gs IHx IHgs | x gs IHx IHgs
                 | k v gs IHk IHv IHgs | t b o IHt IHb IHo | v IHv | v IHv | v IHv | k] using expr_ind';
    (split; [|first [exact I|exact (Forall_impl _ (fun x => @proj1 _ _) IHitems)]]);
    intros slot Hc; try discriminate Hc; rewrite pp_unfold; cbn [utoks]; rewrite norm_paren; f_equal; cbn [pbody cok] in *.
  (* ListComp, SetComp, GeneratorExp *)
  16-18: (cbn [core gen_core] in Hc; apply andb_prop in Hc as [Hc Hgs]; apply andb_prop in Hc as [Hx _];
          nrm; rewrite (T2_ecb _ _ IHx Hx), (tie_comps gs IHgs Hgs); reflexivity).
  (* Starred, UnaryOp, NamedExpr *)
  1,4,14: (nrm; rewrite (T2_ecb _ _ IHv Hc); reflexivity).
  - (* BinOp *) cbn [core] in Hc. apply andb_prop in Hc as [H1 H2]. nrm. rewrite (T2_ecb _ _ IHl H1), (T2_ecb _ _ IHr H2). reflexivity.
  - (* BoolOp *) cbn [core] in Hc. apply andb_prop in Hc as [_ Hvs]. rewrite norm_join, (tie_map ecb ecb_cok _ vs IHvs Hvs). nrm. reflexivity.
  - (* EList *) nrm. rewrite norm_join, (tie_map core core_cok _ l IHl Hc). reflexivity.
  - (* ETuple *) cbn [core] in Hc.
    assert (G : norm (TP "(" :: join [TP ","] (map (fun x => utoks slot_Tuple_elt DQ x) l) ++ [TP ")"]) =
                PK "(" :: join [PK ","] (map (pp slot_Tuple_elt) l) ++ [PK ")"]).
    { nrm. rewrite norm_join, (tie_map core core_cok _ l IHitems Hc). reflexivity. }
    destruct l as [|x [|y r]]; [exact G| |exact G].
    cbn [forallb] in Hc. apply andb_prop in Hc as [Hcx _]. nrm. rewrite (proj1 (Forall_inv IHitems) _ (core_cok _ Hcx)). reflexivity.
  - (* ESet *) cbn [core] in Hc. apply andb_prop in Hc as [_ Hc]. nrm. rewrite norm_join, (tie_map core core_cok _ l IHl Hc). reflexivity.
  - (* EDict *) cbn [core] in Hc. apply andb_prop in Hc as [Hc Hvs]. apply andb_prop in Hc as [_ Hks].
    nrm. rewrite norm_join, (tie_dict ks vs IHks IHvs Hks Hvs). reflexivity.
  - (* Compare *) apply core_compare in Hc as (Hl & _ & _ & Hcs). nrm. rewrite (T2_ecb _ _ IHl Hl), (tie_cmp cs ops IHcs Hcs). reflexivity.
  - (* Attribute *) nrm. rewrite norm_paren, (T2_ecb _ _ IHv Hc). reflexivity.
  - (* Subscript *) apply sub_cok in Hc as [Hv [(items & -> & Es & Hi)|(Eidx & Hs & Hns)]].
    + (* an index tuple with a slice: printed bare *)
      unfold index_toks. rewrite existsb_is_slice, Es. nrm. rewrite (T2_ecb _ _ IHv Hv), norm_join, map_map.
      rewrite (map_guard T icore _ (pp slot_Subscript_tuple_item) items (fun x Hx Hc => Hx _ (icore_cok x Hc)) (proj2 IHs) Hi).
      destruct items as [|x [|y t]]; reflexivity.
    + rewrite Eidx.
      assert (G : norm (utoks slot_Subscript_value DQ v ++ TP "[" :: utoks slot_Subscript_slice DQ s ++ [TP "]"]) =
                  pp slot_Subscript_value v ++ PK "[" :: pp slot_Subscript_slice s ++ [PK "]"]).
      { nrm. rewrite (T2_ecb _ _ IHv Hv), (proj1 IHs _ Hs). reflexivity. }
      destruct s; try exact G. rewrite existsb_is_slice, Hns. exact G.
  - (* Slice *) apply andb_prop in Hc as [Hc Hcc]. apply andb_prop in Hc as [Ha Hb].
    nrm. rewrite (tie_opt _ a IHa Ha), (tie_opt _ b IHb Hb), (tie_opt _ c IHc Hcc). reflexivity.
  - (* Call *) apply core_call in Hc as [Hf [(x & gs & -> & -> & Hg)|[Ha Hk]]].
    + (* f(x for x in y): the generator expression stands bare *)
      nrm. rewrite (T2_ecb _ _ IHf Hf), (proj1 (Forall_inv IHargs) slot_Call_onlyarg Hg). reflexivity.
    + assert (G : norm (join [TP ","] (map (fun x => utoks slot_Call_arg DQ x) args ++ map (kw_toks U DQ) kws)) =
                  join [PK ","] (map (pp slot_Call_arg) args ++ map kwp kws)).
      { rewrite norm_join, map_app, (tie_map core core_cok _ args IHargs Ha), (tie_kws kws IHkws Hk). reflexivity. }
      nrm. rewrite (T2_ecb _ _ IHf Hf). do 3 f_equal.
      destruct args as [|x [|y r]]; [exact G| |exact G]. destruct kws; [|exact G].
      cbn [forallb] in Ha. apply andb_prop in Ha as [Hax _]. exact (proj1 (Forall_inv IHargs) _ (core_cok _ Hax)).
  - (* Lambda *) apply core_lambda in Hc as (Hcb & Hld & _ & Hcde & Hckd).
    assert (Hl : length (map (fun x => utoks slot_Lambda_default DQ x) de) <= length (po ++ ar)) by (rewrite map_length; exact Hld).
    rewrite (lambda_items po ar va ko kw _ (map (fun d => match d with Some x => Some (utoks slot_Lambda_kwdefault DQ x) | None => None end) kd) Hl).
    rewrite norm_cons, norm_app, norm_params, norm_cons, (T2_ecb _ _ IHbody Hcb).
    rewrite map_map, (map_ext _ _ norm_itoks_u), <- map_map, <- litems_map, (tie_map ecb ecb_cok _ de IHde Hcde), (tie_kd kd IHkd Hckd).
    reflexivity.
  - (* DictComp *) cbn [core] in Hc. apply andb_prop in Hc as [Hc Hgs]. apply andb_prop in Hc as [Hc _]. apply andb_prop in Hc as [Hk Hv].
    nrm. rewrite (T2_ecb _ _ IHk Hk), (T2_ecb _ _ IHv Hv), (tie_comps gs IHgs Hgs). reflexivity.
  - (* IfExp *) cbn [core] in Hc. apply andb_prop in Hc as [Hc Hc3]. apply andb_prop in Hc as [Hc1 Hc2].
    nrm. rewrite (T2_ecb _ _ IHt Hc1), (T2_ecb _ _ IHb Hc2), (T2_ecb _ _ IHo Hc3). reflexivity.
Qed.

Theorem tie_all : forall e, T e.
Proof. intros e. exact (proj1 (tie_all2 e)). Qed.

Theorem norm_unparse_core : forall e, core e = true -> norm (unparse_toks e) = pp slot_top e.
Proof. intros e H. apply (tie_all e slot_top (core_cok e H)). Qed.

Theorem roundtrip_unparser_core : forall e, core e = true -> is_starred e = false ->
  exists f0, forall f, f0 <= f -> pc f (MExpr slot_top) (norm (unparse_toks e)) = Some (e, []).
Proof. intros e Hc Hs. rewrite (norm_unparse_core e Hc). apply roundtrip_core; assumption. Qed.

Lemma core_top_cok e : core_top e = true -> cok e = true.
Proof.
  intros H. apply orb_prop in H as [H|H].
  - apply ecb_cok. exact H.
  - destruct e; try discriminate H. exact H.
Qed.
Theorem norm_unparse_core_top : forall e, core_top e = true -> norm (unparse_toks e) = pp slot_top e.
Proof. intros e H. apply (tie_all e slot_top (core_top_cok e H)). Qed.
Theorem roundtrip_unparser_core_top : forall e, core_top e = true ->
  exists f0, forall f, f0 <= f -> pc f (MExpr slot_top) (norm (unparse_toks e)) = Some (e, []).
Proof. intros e H. rewrite (norm_unparse_core_top e H). apply roundtrip_core_top; exact H. Qed.
