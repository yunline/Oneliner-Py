(* The scope-rewriting layer (Lower.transf: expr_transform.py) maps the core of the C03 round-trip theorem into itself: the
   expressions the converter emits for the user's expressions stay inside the fragment for which "the text reads back as
   exactly this tree" is proved. *)
From Coq Require Import String List ZArith Bool Arith Lia.
From OL Require Import Sexp PyAst Unparse Namespace Lower Parse ParseProof ParseTie StmtOk.
From OLGen Require Import Tables.
Import ListNotations.
Open Scope string_scope.
Open Scope list_scope.

(* [ecore] as a proposition, for [auto with ok] to resolve on: the [okE_*] lemmas are the hints *)
Definition okE (e : expr) : Prop := core e = true /\ is_starred e = false.

Lemma okE_ecore e : okE e <-> ecore e = true.
Proof. unfold okE, ecore. rewrite andb_true_iff, negb_true_iff. reflexivity. Qed.

Lemma Forall_forallb {X} (A : X -> Prop) (p : X -> bool) : (forall x, A x <-> p x = true) ->
  forall l, Forall A l <-> forallb p l = true.
Proof.
  intros H. induction l as [|x r IH]; cbn [forallb]; [split; [reflexivity|constructor]|].
  rewrite Forall_cons_iff, andb_true_iff, H, IH. reflexivity.
Qed.
Lemma forallb_Forall {X} (p : X -> bool) l : Forall (fun x => p x = true) l <-> forallb p l = true.
Proof. exact (Forall_forallb _ p (fun x => iff_refl _) l). Qed.
Lemma okL_ecore l : Forall okE l <-> forallb ecore l = true.
Proof. exact (Forall_forallb okE ecore okE_ecore l). Qed.

Lemma okL_core l : Forall okE l -> forallb core l = true.
Proof. induction 1 as [|x r [Cx _] _ IH]; cbn [forallb]; [|rewrite Cx, IH]; reflexivity. Qed.

Lemma okE_name x : okE (Name x). Proof. split; reflexivity. Qed.
Lemma okE_const c : lit_ok c = true -> okE (Constant c).
Proof. intros H. split; [exact H|reflexivity]. Qed.
Lemma okE_cstr s : okE (cstr s). Proof. split; reflexivity. Qed.
Lemma okE_ctrue : okE ctrue. Proof. split; reflexivity. Qed.
Lemma okE_cfalse : okE cfalse. Proof. split; reflexivity. Qed.
Lemma okE_cnone : okE cnone. Proof. split; reflexivity. Qed.
Lemma okE_ellipsis : okE ellipsis. Proof. split; reflexivity. Qed.
Lemma okE_cint z : (0 <= z)%Z -> okE (cint z).
Proof. intros H. apply okE_const. apply Z.leb_le. exact H. Qed.
Lemma okE_cnat k : okE (cint (Z.of_nat k)).
Proof. apply okE_cint. apply Nat2Z.is_nonneg. Qed.
Lemma okE_unop op v : okE v -> okE (UnaryOp op v).
Proof. intros Hv%okE_ecore. split; [exact Hv|reflexivity]. Qed.
Lemma okE_nint z : okE (nint z).
Proof. unfold nint. destruct (Z.ltb_spec z 0); [apply okE_unop|]; apply okE_cint; lia. Qed.
Lemma okE_minus1 : okE minus1. Proof. split; reflexivity. Qed.
Lemma okE_named x v : okE v -> okE (NamedExpr x v).
Proof. intros Hv%okE_ecore. split; [exact Hv|reflexivity]. Qed.
Lemma okE_attr v a : okE v -> okE (Attribute v a).
Proof. intros Hv%okE_ecore. split; [exact Hv|reflexivity]. Qed.
Lemma okE_binop l op r : okE l -> okE r -> okE (BinOp l op r).
Proof. intros Hl%okE_ecore Hr%okE_ecore. split; [exact (andb_true_intro (conj Hl Hr))|reflexivity]. Qed.
Lemma okE_ifexp t b o : okE t -> okE b -> okE o -> okE (IfExp t b o).
Proof.
  intros Ht%okE_ecore Hb%okE_ecore Ho%okE_ecore. split; [|reflexivity].
  exact (andb_true_intro (conj (andb_true_intro (conj Ht Hb)) Ho)).
Qed.
Lemma okE_compare1 l op c : okE l -> okE c -> okE (Compare l [op] [c]).
Proof.
  intros Hl%okE_ecore Hc%okE_ecore. split; [|reflexivity]. cbn [core length Nat.eqb Nat.leb forallb]. fold (ecore l) (ecore c).
  rewrite Hl, Hc. reflexivity.
Qed.
Lemma okE_elist es : Forall okE es -> okE (EList es).
Proof. intros H. split; [exact (okL_core _ H)|reflexivity]. Qed.
Lemma okE_etuple es : Forall okE es -> okE (ETuple es).
Proof. intros H. split; [exact (okL_core _ H)|reflexivity]. Qed.
Lemma okE_boolop op vs : 2 <= length vs -> Forall okE vs -> okE (BoolOp op vs).
Proof.
  intros HL%Nat.leb_le H%okL_ecore. split; [|reflexivity]. exact (andb_true_intro (conj HL H)).
Qed.
Lemma okE_boolop2 op a b : okE a -> okE b -> okE (BoolOp op [a; b]).
Proof. intros Ha Hb. apply okE_boolop; [apply le_n|]. constructor; [exact Ha|]. constructor; [exact Hb|constructor]. Qed.

(* a call: only when it is the one argument and no keyword follows does a generator expression stand bare *)
Lemma core_call_intro f args kws : ecore f = true -> forallb core args = true ->
  forallb (fun kw : option ident * expr => ecore (snd kw)) kws = true -> core (Call f args kws) = true.
Proof.
  intros Hf Ha Hk. unfold ecore in Hk. cbn [core]. fold (ecore f). rewrite Hf. cbn [andb]. pose proof (andb_true_intro (conj Ha Hk)) as G.
  destruct args as [|x l]; [exact G|]. cbn [forallb] in Ha. apply andb_prop in Ha as [Hx _].
  destruct x; try exact G. discriminate Hx.
Qed.
Lemma okE_callk f args kws : okE f -> Forall okE args -> Forall okE (map snd kws) -> okE (Call f args kws).
Proof.
  intros Hf%okE_ecore Ha%okL_core Hk%okL_ecore. split; [|reflexivity].
  apply core_call_intro; [exact Hf|exact Ha|]. rewrite <- Hk. clear. induction kws as [|kw r IH]; cbn [map forallb]; [|rewrite IH]; reflexivity.
Qed.
Lemma okE_call f args : okE f -> Forall okE args -> okE (call f args).
Proof. intros Hf Ha. apply okE_callk; [exact Hf|exact Ha|constructor]. Qed.

Definition okO (o : option expr) : Prop := match o with Some x => okE x | None => True end.
Lemma okO_oecb o : okO o <-> oecb o = true.
Proof. destruct o; [apply okE_ecore|split; reflexivity]. Qed.
Lemma okOs_oecb l : Forall okO l <-> forallb oecb l = true.
Proof. exact (Forall_forallb okO oecb okO_oecb l). Qed.

Lemma okE_lambda po ar va ko kd kw de body :
  okE body -> length de <= length (po ++ ar) -> length kd = length ko -> Forall okE de -> Forall okO kd ->
  okE (Lambda po ar va ko kd kw de body).
Proof.
  intros Hb%okE_ecore HL%Nat.leb_le HK%Nat.eqb_eq Hd%okL_ecore Hkd%okOs_oecb. split; [|reflexivity]. cbn [core].
  fold (ecore body). rewrite Hb, HL, HK. exact (andb_true_intro (conj Hd Hkd)).
Qed.
Lemma okE_lambda_plain po ar va kw body : okE body -> okE (Lambda po ar va [] [] kw [] body).
Proof. intros H. apply okE_lambda; [exact H|apply Nat.le_0_l|reflexivity|constructor|constructor]. Qed.
Lemma okE_lambda0 body : okE body -> okE (lambda0 body).
Proof. apply okE_lambda_plain. Qed.
Lemma okE_listcomp1 x t i : okE x -> core t = true -> is_target t = true -> okE i -> okE (ListComp x [(t, i, [], false)]).
Proof.
  intros Hx%okE_ecore Ct Tt [Ci Ni]. split; [|reflexivity]. cbn [core length Nat.leb forallb andb negb]. fold (ecore x).
  rewrite Hx, Ct, Tt, Ci, Ni. reflexivity.
Qed.
Lemma okE_edict ks vs : length ks = length vs -> Forall okO ks -> Forall okE vs -> okE (EDict ks vs).
Proof.
  intros HL%Nat.eqb_eq Hk%okOs_oecb Hv%okL_ecore. split; [|reflexivity]. cbn [core]. rewrite HL. exact (andb_true_intro (conj Hk Hv)).
Qed.

(* [cok] (the predicate of the printer = unparser theorem ParseTie.tie_all), [item_ok] and [index_ok] go by the kind of node:
   starred, slice, generator expression or none of these *)
Definition is_genexp (e : expr) : bool := match e with GeneratorExp _ _ => true | _ => false end.
Definition kind (e : expr) : bool * bool * bool := (is_starred e, is_slice e, is_genexp e).

Lemma cok_by_kind e : cok e = if is_slice e then item_ok e else if is_genexp e then gen_core e else core e.
Proof. destruct e; cbn [cok is_slice is_genexp]; reflexivity. Qed.
Lemma item_by_kind x : item_ok x = if is_slice x then cok x else ecore x.
Proof. destruct x; cbn [item_ok is_slice]; reflexivity. Qed.
Lemma core_kind e : core e = true -> kind e = (is_starred e, false, false).
Proof. destruct e; intros H; try reflexivity; discriminate H. Qed.
(* for a node [C ..] that is neither, [cok (C ..) = true] IS [core (C ..) = true], but a conversion between the two unfolds [core]
   first and compares what it finds; this goes by [cok_by_kind] and evaluates the two tests only *)
Lemma cok_core e : cok e = true -> is_slice e = false -> is_genexp e = false -> core e = true.
Proof. intros H Hs Hg. rewrite cok_by_kind, Hs, Hg in H. exact H. Qed.
Lemma okE_cok e : okE e -> cok e = true /\ kind e = (false, false, false).
Proof. intros [C N]. split; [exact (core_cok e C)|]. rewrite (core_kind e C), N. reflexivity. Qed.
Lemma ecore_item x : ecore x = true -> item_ok x = true.
Proof. intros H. rewrite item_by_kind. destruct (is_slice x); [exact (ecb_cok x H)|exact H]. Qed.

Lemma index_ok_cases s : index_ok s = true ->
  item_ok s = true \/ exists items, s = ETuple items /\ forallb item_ok items = true.
Proof.
  destruct s; cbn [index_ok item_ok]; intros H; try (left; exact H). right. exists elts. split; [reflexivity|exact H].
Qed.
Lemma item_index x : item_ok x = true -> ecore x = true \/ index_ok x = true.
Proof. destruct x; cbn [index_ok item_ok]; intros H; try (left; exact H). right. exact H. Qed.

Lemma items_plain : forall l, forallb item_ok l = true -> existsb is_slice l = false -> forallb core l = true.
Proof.
  induction l as [|x r IH]; intros Hi Hs; [reflexivity|]. cbn [forallb existsb] in *.
  apply andb_prop in Hi as [Hx Hr]. apply orb_false_elim in Hs as [Sx Sr]. rewrite (IH Hr Sr), andb_true_r.
  rewrite item_by_kind, Sx in Hx. apply andb_prop in Hx as [Hx _]. exact Hx.
Qed.
Lemma core_subscript v s : core (Subscript v s) = true <-> ecore v = true /\ (ecore s = true \/ index_ok s = true).
Proof.
  cbn [core]. fold (ecore v). rewrite andb_true_iff. apply and_iff_compat_l.
  assert (D : forall A : Prop, A <-> A \/ A) by tauto. destruct s; try exact (D _); clear D.
  - (* ETuple *) cbn [index_ok]. destruct (existsb is_slice elts) eqn:Es.
    + split; [intros H; right; exact H|intros [H|H]; [|exact H]].
      apply andb_prop in H as [H _]. rewrite (no_slice _ H : existsb is_slice elts = false) in Es. discriminate Es.
    + split; [intros H; left; exact H|intros [H|H]; [exact H|]]. unfold ecore. cbn [core is_starred negb]. rewrite (items_plain _ H Es). reflexivity.
  - (* Slice *) split; [intros H; right; exact H|intros [H|H]; [discriminate H|exact H]].
Qed.
Lemma okE_sub v s : okE v -> okE s -> okE (Subscript v s).
Proof. intros Hv%okE_ecore Hs%okE_ecore. split; [|reflexivity]. apply core_subscript. split; [exact Hv|left; exact Hs]. Qed.
Lemma okE_subscript_slice v a b c : okE v -> okO a -> okO b -> okO c -> okE (Subscript v (Slice a b c)).
Proof.
  intros Hv%okE_ecore Ha%okO_oecb Hb%okO_oecb Hc%okO_oecb. split; [|reflexivity]. apply core_subscript. split; [exact Hv|right].
  exact (andb_true_intro (conj (andb_true_intro (conj Ha Hb)) Hc)).
Qed.

Lemma okL_app a b : Forall okE a -> Forall okE b -> Forall okE (a ++ b).
Proof. intros Ha Hb. apply Forall_app. split; assumption. Qed.
Lemma okE_if (b : bool) x y : okE x -> okE y -> okE (if b then x else y).
Proof. destruct b; intros; assumption. Qed.
Lemma okL_if (b : bool) x y : Forall okE x -> Forall okE y -> Forall okE (if b then x else y).
Proof. destruct b; intros; assumption. Qed.
Lemma okL_nonempty {X} (l : list X) e : okE e -> Forall okE (match l with [] => [] | _ :: _ => [e] end).
Proof. intros H. destruct l; constructor; [exact H|constructor]. Qed.

(* the skeleton of an emitted expression is in the core because every node of it is: [auto with ok] *)
Create HintDb ok.
#[export] Hint Resolve okE_name okE_cstr okE_ctrue okE_cfalse okE_cnone okE_ellipsis okE_nint okE_cnat okE_minus1 okE_unop okE_named
  okE_attr okE_binop okE_boolop2 okE_ifexp okE_compare1 okE_elist okE_etuple okE_call okE_lambda_plain okE_lambda0
  okE_listcomp1 okE_edict okE_sub okE_if
  Forall_nil Forall_cons okL_app okL_if okL_nonempty : ok.
(* side conditions on closed terms: the target of an emitted comprehension clause, the empty dictionary *)
#[export] Hint Extern 1 (core _ = true) => reflexivity : ok.
#[export] Hint Extern 1 (is_target _ = true) => reflexivity : ok.
#[export] Hint Extern 1 (length _ = length _) => reflexivity : ok.

Lemma okE_globals_call : okE globals_call. Proof. split; reflexivity. Qed.
#[export] Hint Resolve okE_globals_call : ok.
Lemma okE_globals_item x : okE (globals_item x).
Proof. unfold globals_item. auto with ok. Qed.
Lemma okE_setitem d x v : okE d -> okE v -> okE (setitem d x v).
Proof. intros Hd Hv. unfold setitem. auto with ok. Qed.
#[export] Hint Resolve okE_globals_item okE_setitem : ok.

Lemma okE_get_load_global n x : okE (get_load_global n x).
Proof. unfold get_load_global. destruct (hidden_by_local _ _); auto with ok. Qed.
#[export] Hint Resolve okE_get_load_global : ok.

Lemma okE_load_from_enclosing n x : forall links, okE (load_from_enclosing n links x).
Proof.
  induction links as [|l r IH]; cbn [load_from_enclosing]; [auto with ok|].
  destruct (lk_kind l); [auto with ok| |exact IH].
  destruct (lookup_sym (lk_syms l) x) as [s|]; [|exact IH].
  destruct (sy_local s); [destruct (mem x (lk_inner_nonlocal l))|destruct (assoc_nat x (lk_outer_map l))]; auto with ok.
Qed.
#[export] Hint Resolve okE_load_from_enclosing : ok.

(* [H : d = inl e], where [d] is a tree of tests with a result or a failure at each leaf: one goal for each result *)
Ltac leaves H :=
  repeat match type of H with
         | (if ?c then _ else _) = _ => destruct c
         | match ?c with _ => _ end = _ => destruct c
         end;
  try discriminate H; injection H as <-.

Lemma okE_get_load_name n bd inn x e : get_load_name n bd inn x = inl e -> okE e.
Proof. unfold get_load_name. intros H. leaves H; auto with ok. Qed.
Lemma okE_get_load_assigned n x e : get_load_assigned n x = inl e -> okE e.
Proof. unfold get_load_assigned. intros H. leaves H; auto with ok. Qed.
Lemma okE_get_assign n x v e : okE v -> get_assign n x v = inl e -> okE e.
Proof. intros Hv. unfold get_assign. intros H. leaves H; auto with ok. Qed.

(* the value of an assignment expression whose target is not a plain local: [store, load][-1] *)
Lemma okE_stored n x r e : okE r ->
  match r with
  | NamedExpr _ _ => ret r
  | _ => let! ld := get_load_assigned n x in ret (Subscript (EList [r; ld]) minus1)
  end = inl e -> okE e.
Proof.
  intros Hr H.
  assert (G : (let! ld := get_load_assigned n x in ret (Subscript (EList [r; ld]) minus1)) = inl e -> okE e).
  { intros G. apply rbind_inl in G as (ld & El & G). injection G as <-. apply okE_get_load_assigned in El. auto with ok. }
  destruct r; try exact (G H). injection H as <-. exact Hr.
Qed.

Lemma rmap_spec {X Y} (f : X -> res Y) (P : X -> Prop) (Q : Y -> Prop) :
  (forall x y, P x -> f x = inl y -> Q y) ->
  forall l l', Forall P l -> rmap f l = inl l' -> Forall Q l' /\ length l' = length l.
Proof.
  intros Hf l l' HP H. split; [|exact (rmap_length f l l' H)]. apply rmap_inv in H.
  induction H as [|x y r r' Hxy _ IH]; [constructor|]. apply Forall_cons_iff in HP as [Px Pr].
  constructor; [exact (Hf x y Px Hxy)|exact (IH Pr)].
Qed.

Lemma rmap_forallb {X Y} (A : X -> Prop) (f : X -> res Y) (p : X -> bool) (q : Y -> bool) :
  (forall x y, A x -> p x = true -> f x = inl y -> q y = true) ->
  forall l l', Forall A l -> forallb p l = true -> rmap f l = inl l' -> forallb q l' = true.
Proof.
  intros Hf l l' HA Hp%forallb_Forall H. apply forallb_Forall.
  refine (proj1 (rmap_spec f (fun x => A x /\ p x = true) _ _ l l' (Forall_and HA Hp) H)).
  intros x y [Ax Px]. exact (Hf x y Ax Px).
Qed.

Lemma mem_In i l : List.In i l -> mem i l = true.
Proof. unfold mem. intros H. apply existsb_exists. exists i. split; [exact H|apply String.eqb_refl]. Qed.

(* targets of comprehension clauses are left as they are: their names are bound when they are rewritten *)
Lemma names_fixed n c : forall l ns, forallb is_name l = true -> target_names (ETuple l) = inl ns ->
  (forall i, List.In i ns -> mem i c = true) -> rmap (transf n c true) l = inl l.
Proof.
  induction l as [|x r IH]; intros ns Hn H Hc; [reflexivity|]. cbn [forallb] in Hn. apply andb_prop in Hn as [Hx Hr].
  destruct x; try discriminate Hx.
  rewrite target_names_tuple_cons in H. apply rbind_inl in H as (a & Ea & H). injection Ea as <-.
  apply rbind_inl in H as (b & Eb & H). injection H as <-.
  cbn [rmap transf]. rewrite get_load_name_bound by (apply Hc; left; reflexivity). cbn [rbind].
  rewrite (IH b Hr Eb); [reflexivity|]. intros i Hi. apply Hc. right. exact Hi.
Qed.

Lemma target_fixed n c t ns : is_target t = true -> target_names t = inl ns -> (forall i, List.In i ns -> mem i c = true) ->
  transf n c true t = inl t.
Proof.
  intros Ht H Hc. destruct t; try discriminate Ht; cbn [transf]; [|rewrite (names_fixed n c elts ns Ht H Hc); reflexivity..].
  injection H as <-. apply get_load_name_bound. apply Hc. left. reflexivity.
Qed.

Lemma gens_core_cons t i ifs a r : gens_core ((t, i, ifs, a) :: r) = true <->
  (core t = true /\ is_target t = true /\ ecore i = true /\ forallb ecore ifs = true /\ a = false) /\ gens_core r = true.
Proof.
  unfold gens_core, ecore. cbn [forallb]. split.
  - intros H. apply andb_prop in H as [H Hr]. apply andb_prop in H as [H Ha%negb_true_iff]. apply andb_prop in H as [H Hifs].
    apply andb_prop in H as [H Hi]. apply andb_prop in H as [H Hci]. apply andb_prop in H as [Ht Htt].
    rewrite Hci, Hi. repeat split; assumption.
  - intros [(-> & -> & [-> ->]%andb_prop & -> & ->) ->]. reflexivity.
Qed.

Definition targets_fixed (n : nsp) (c : list ident) (gs : list comprehension) : Prop :=
  Forall (fun g => match g with (t, _, _, _) => transf n c true t = inl t end) gs.

Lemma gen_targets_fixed n c : forall gs ns, gens_core gs = true -> gen_names gs = inl ns ->
  (forall i, List.In i ns -> mem i c = true) -> targets_fixed n c gs.
Proof.
  induction gs as [|[[[t i] ifs] a] r IH]; intros ns Hc H Hin; [constructor|].
  apply gens_core_cons in Hc as [(_ & Tt & _ & _ & ->) Cr]. cbn [gen_names] in H.
  apply rbind_inl in H as (x & Ex & H). apply rbind_inl in H as (y & Ey & H). injection H as <-.
  constructor.
  - apply (target_fixed n c t x Tt Ex). intros j Hj. apply Hin. apply in_or_app. left. exact Hj.
  - apply (IH y Cr Ey). intros j Hj. apply Hin. apply in_or_app. right. exact Hj.
Qed.

Section Core.
  Variable n : nsp.
  Definition K (e : expr) : Prop :=
    forall bd inn e', cok e = true -> transf n bd inn e = inl e' -> cok e' = true /\ kind e' = kind e.
  Definition keeps (p : expr -> bool) (e : expr) : Prop :=
    forall bd inn e', p e = true -> transf n bd inn e = inl e' -> p e' = true.
  (* the items of an index tuple are not operands of the tuple: what is needed of them is handed on beside [K] *)
  Definition P (e : expr) : Prop := K e /\ match e with ETuple items => Forall (keeps item_ok) items | _ => True end.

  Lemma P_core e : P e -> forall bd inn e', core e = true -> transf n bd inn e = inl e' ->
    core e' = true /\ is_starred e' = is_starred e.
  Proof.
    intros [HK _] bd inn e' Hc H. destruct (HK bd inn e' (core_cok e Hc) H) as [Hc' Hk].
    rewrite (core_kind e Hc) in Hk. injection Hk as Hst Hsl Hg. rewrite cok_by_kind, Hsl, Hg in Hc'. split; assumption.
  Qed.
  Lemma P_elem e : P e -> keeps core e.
  Proof. intros HP bd inn e' Hc H. exact (proj1 (P_core e HP bd inn e' Hc H)). Qed.
  Lemma P_ecore e : P e -> keeps ecore e.
  Proof.
    intros HP bd inn e' Hc H. unfold ecore in *. apply andb_prop in Hc as [C N]. destruct (P_core e HP bd inn e' C H) as [C' N'].
    rewrite C', N'. exact N.
  Qed.
  Lemma P_gen e : P e -> keeps gen_core e.
  Proof.
    intros [HK _] bd inn e' Hc H. destruct e; try discriminate Hc.
    destruct (HK bd inn e' Hc H) as [Hc' Hk]. destruct e'; try discriminate Hk. exact Hc'.
  Qed.
  Lemma P_item x : P x -> keeps item_ok x.
  Proof.
    intros HP bd inn x' Hc H. rewrite item_by_kind in Hc. destruct (is_slice x) eqn:Es.
    - destruct (proj1 HP bd inn x' Hc H) as [Hc' Hk]. injection Hk as _ Hsl _. rewrite item_by_kind, Hsl, Es. exact Hc'.
    - apply ecore_item. exact (P_ecore x HP bd inn x' Hc H).
  Qed.
  Lemma P_index s : P s -> forall bd inn s', index_ok s = true -> transf n bd inn s = inl s' ->
    ecore s' = true \/ index_ok s' = true.
  Proof.
    intros HP bd inn s' Hc H. apply index_ok_cases in Hc as [Hc|(items & -> & Hc)].
    - apply item_index. exact (P_item s HP bd inn s' Hc H).
    - right. cbn [transf] in H. apply rbind_inl in H as (l' & El & H). injection H as <-.
      exact (rmap_forallb (keeps item_ok) _ item_ok item_ok (fun x x' Hx => Hx bd inn x') items l' (proj2 HP) Hc El).
  Qed.

  Definition topt (bd : list ident) (inn : bool) (o : option expr) : res (option expr) :=
    match o with Some x => let! y := transf n bd inn x in ret (Some y) | None => ret None end.
  Lemma P_oecb o : Po P o -> forall bd inn o', oecb o = true -> topt bd inn o = inl o' -> oecb o' = true.
  Proof.
    intros HP bd inn o' Hc H. destruct o as [x|]; cbn [topt] in H.
    - apply rbind_inl in H as (y & Ey & H). injection H as <-. exact (P_ecore x HP bd inn y Hc Ey).
    - injection H as <-. reflexivity.
  Qed.

  Lemma P_list (p : expr -> bool) : (forall x, P x -> keeps p x) -> forall bd inn l l', Forall P l -> forallb p l = true -> rmap (transf n bd inn) l = inl l' -> forallb p l' = true.
  Proof. intros Hp bd inn. apply rmap_forallb. intros x x' Px. exact (Hp x Px bd inn x'). Qed.
  Lemma P_olist bd inn l l' : Forall (Po P) l -> forallb oecb l = true -> rmap (topt bd inn) l = inl l' -> forallb oecb l' = true.
  Proof. apply rmap_forallb. intros o o' Ho. exact (P_oecb o Ho bd inn o'). Qed.
  Lemma P_kws bd inn (kws kws' : list (option ident * expr)) : Forall (fun kw => P (snd kw)) kws ->
    forallb (fun kw => ecore (snd kw)) kws = true ->
    rmap (fun kw => let! v := transf n bd inn (snd kw) in ret (fst kw, v)) kws = inl kws' ->
    forallb (fun kw => ecore (snd kw)) kws' = true.
  Proof.
    apply rmap_forallb. intros kw kw' Pv Hc H.
    apply rbind_inl in H as (v & Ev & H). injection H as <-. exact (P_ecore _ Pv bd inn v Hc Ev).
  Qed.

  Lemma tgens_core bd inn c : forall gs first gs', Pg P gs -> gens_core gs = true -> targets_fixed n c gs ->
    tgens_go (fun c0 i0 e0 => transf n c0 i0 e0) bd inn c gs first = inl gs' ->
    gens_core gs' = true /\ length gs' = length gs.
  Proof.
    induction gs as [|[[[t i] ifs] a] r IH]; intros first gs' HP Hc Hn H; cbn [tgens_go] in H.
    - injection H as <-. split; reflexivity.
    - apply Forall_cons_iff in HP as [(_ & Pi & Pifs) HPr]. apply Forall_cons_iff in Hn as [Et Hnr].
      apply gens_core_cons in Hc as [(Ct & Tt & Ci & Cifs & ->) Cr].
      apply rbind_inl in H as (i' & Ei & H). rewrite Et in H. cbn [rbind] in H.
      apply rbind_inl in H as (ifs' & Eifs & H). apply rbind_inl in H as (r' & Er & H). injection H as <-.
      destruct (IH false r' HPr Cr Hnr Er) as [HR HL]. split; [|cbn [length]; rewrite HL; reflexivity].
      apply gens_core_cons. split; [|exact HR]. split; [exact Ct|]. split; [exact Tt|].
      split; [destruct first; exact (P_ecore i Pi _ _ i' Ci Ei)|]. split; [|reflexivity].
      exact (P_list ecore P_ecore c true ifs ifs' Pifs Cifs Eifs).
  Qed.

  Lemma comp_gens bd inn gs ns gs' : Pg P gs -> gens_core gs = true -> gen_names gs = inl ns ->
    tgens_go (fun c0 i0 e0 => transf n c0 i0 e0) bd inn (ns ++ bd) gs true = inl gs' ->
    gens_core gs' = true /\ length gs' = length gs.
  Proof.
    intros HP Hc Hns. apply tgens_core; [exact HP|exact Hc|]. apply (gen_targets_fixed n _ gs ns Hc Hns).
    intros i Hi. apply mem_In. apply in_or_app. left. exact Hi.
  Qed.
  Lemma comp_core bd inn x gs ns gs' x' : P x -> Pg P gs -> ecore x && Nat.leb 1 (length gs) && gens_core gs = true ->
    gen_names gs = inl ns -> tgens_go (fun c0 i0 e0 => transf n c0 i0 e0) bd inn (ns ++ bd) gs true = inl gs' ->
    transf n (ns ++ bd) true x = inl x' -> ecore x' && Nat.leb 1 (length gs') && gens_core gs' = true.
  Proof.
    intros Px Pgs Hc Ens Egs Ex. apply andb_prop in Hc as [Hc Hgs]. apply andb_prop in Hc as [Hx Hlen].
    destruct (comp_gens bd inn gs ns gs' Pgs Hgs Ens Egs) as [HG HL]. rewrite (P_ecore x Px _ _ x' Hx Ex), HL, Hlen. exact HG.
  Qed.

  Lemma K_subscript v s : P v -> P s -> K (Subscript v s).
  Proof.
    intros Pv Ps bd inn e' Hc Ht. apply cok_core in Hc; [|reflexivity..]. apply core_subscript in Hc as [Hv Hs]. cbn [transf] in Ht.
    apply rbind_inl in Ht as (v' & Ev & Ht). apply rbind_inl in Ht as (s' & Es & Ht). injection Ht as <-.
    split; [|reflexivity]. apply (core_subscript v' s'). split; [exact (P_ecore v Pv _ _ _ Hv Ev)|].
    destruct Hs as [Hs|Hs]; [left; exact (P_ecore s Ps _ _ _ Hs Es)|exact (P_index s Ps _ _ _ Hs Es)].
  Qed.

  Lemma K_call f args kws : P f -> Forall P args -> Forall (fun kw => P (snd kw)) kws -> K (Call f args kws).
  Proof.
    intros Pf Pa Pk bd inn e' Hc Ht. apply cok_core in Hc; [|reflexivity..]. apply core_call in Hc as [Hf Hm]. cbn [transf] in Ht.
    apply rbind_inl in Ht as ([fp|] & _ & Ht).
    - (* zero-argument super() written out *)
      apply rbind_inl in Ht as (f' & Ef & Ht). apply rbind_inl in Ht as (c & Ec & Ht). apply rbind_inl in Ht as (s & Es & Ht).
      injection Ht as <-. split; [|reflexivity]. apply core_call_intro; [exact (P_ecore f Pf _ _ _ Hf Ef)| |reflexivity].
      apply okE_get_load_name in Ec, Es. apply okL_core. auto with ok.
    - apply rbind_inl in Ht as (f' & Ef & Ht). apply rbind_inl in Ht as (args' & Ea & Ht). apply rbind_inl in Ht as (kws' & Ek & Ht).
      injection Ht as <-. pose proof (P_ecore f Pf _ _ _ Hf Ef) as Hf'. split; [|reflexivity].
      destruct Hm as [(x & gs & -> & -> & Hg)|[Ha Hk]].
      + (* f(x for x in y) *)
        cbn [rmap] in Ea, Ek. injection Ek as <-. apply rbind_inl in Ea as (g' & Eg & Ea). injection Ea as <-.
        pose proof (P_gen _ (Forall_inv Pa) _ _ _ Hg Eg) as Hg'. destruct g'; try discriminate Hg'.
        exact (andb_true_intro (conj Hf' Hg')).
      + apply core_call_intro; [exact Hf'|exact (P_list core P_elem _ _ _ _ Pa Ha Ea)|exact (P_kws _ _ _ _ Pk Hk Ek)].
  Qed.

  (* second part of [P]: the items of a tuple have [P]; first part: subscripts and calls by their lemmas, for every other node
     [Hc] says what [cok] asks of its children and [Ht] gives the rewritten children *)
  Theorem transf_core_all : forall e, P e.
  Proof.
    induction e using expr_ind'; (split; [|first [exact I|exact (Forall_impl _ P_item H)]]);
      first [exact (K_subscript _ _ IHe1 IHe2) | exact (K_call _ _ _ IHe H H0)
            | intros bd inn e' Hc Ht; cbn [cok core] in Hc; try discriminate Hc; cbn [transf] in Ht].
    (* the goal numbers follow the order of the constructors of [expr] *)
    16-18: (* ListComp, SetComp, GeneratorExp *) apply rbind_inl in Ht as (ns & Ens & Ht); apply rbind_inl in Ht as (gs' & Egs & Ht);
      apply rbind_inl in Ht as (x & Ex & Ht); injection Ht as <-; (split; [|reflexivity]); exact (comp_core _ _ _ _ _ _ _ IHe H Hc Ens Egs Ex).
    7,8: (* EList, ETuple *) apply rbind_inl in Ht as (l' & El & Ht); injection Ht as <-; (split; [|reflexivity]); exact (P_list core P_elem _ _ _ _ H Hc El).
    3,6,10: (* Starred, UnaryOp, Attribute *) apply rbind_inl in Ht as (v & Ev & Ht); injection Ht as <-; (split; [|reflexivity]); exact (P_ecore _ IHe _ _ _ Hc Ev).
    - (* Name *) exact (okE_cok e' (okE_get_load_name _ _ _ _ _ Ht)).
    - (* Constant *) injection Ht as <-. split; [exact Hc|reflexivity].
    - (* BinOp *) apply rbind_inl in Ht as (l & El & Ht). apply rbind_inl in Ht as (r & Er & Ht). injection Ht as <-.
      apply andb_prop in Hc as [H1 H2]. split; [|reflexivity].
      exact (andb_true_intro (conj (P_ecore _ IHe1 _ _ _ H1 El) (P_ecore _ IHe2 _ _ _ H2 Er))).
    - (* BoolOp *) apply rbind_inl in Ht as (l & El & Ht). injection Ht as <-. apply andb_prop in Hc as [Hlen Hvs].
      split; [|reflexivity]. cbn [cok core]. rewrite (rmap_length _ _ _ El), Hlen. exact (P_list ecore P_ecore _ _ _ _ H Hvs El).
    - (* ESet *) apply rbind_inl in Ht as (l' & El & Ht). injection Ht as <-. apply andb_prop in Hc as [Hlen Hc].
      split; [|reflexivity]. cbn [cok core]. rewrite (rmap_length _ _ _ El), Hlen. exact (P_list core P_elem _ _ _ _ H Hc El).
    - (* EDict *) apply rbind_inl in Ht as (ks' & Eks & Ht). apply rbind_inl in Ht as (vs' & Evs & Ht). injection Ht as <-.
      apply andb_prop in Hc as [Hc Hvs]. apply andb_prop in Hc as [Hlen Hks].
      split; [|reflexivity]. cbn [cok core]. rewrite (rmap_length _ _ _ Eks), (rmap_length _ _ _ Evs), Hlen.
      exact (andb_true_intro (conj (P_olist _ _ _ _ H Hks Eks) (P_list ecore P_ecore _ _ _ _ H0 Hvs Evs))).
    - (* Compare *) apply rbind_inl in Ht as (l' & El & Ht). apply rbind_inl in Ht as (cs' & Ecs & Ht). injection Ht as <-.
      apply andb_prop in Hc as [Hc Hcs]. apply andb_prop in Hc as [Hc Hl1]. apply andb_prop in Hc as [Hl Hlen].
      split; [|reflexivity]. cbn [cok core]. fold (ecore l'). rewrite (P_ecore _ IHe _ _ _ Hl El), (rmap_length _ _ _ Ecs), Hlen, Hl1.
      exact (P_list ecore P_ecore _ _ _ _ H Hcs Ecs).
    - (* Slice *) apply rbind_inl in Ht as (a' & Ea & Ht). apply rbind_inl in Ht as (b' & Eb & Ht). apply rbind_inl in Ht as (c' & Ec & Ht).
      injection Ht as <-. apply andb_prop in Hc as [Hc Cc]. apply andb_prop in Hc as [Ca Cb]. split; [|reflexivity].
      exact (andb_true_intro (conj (andb_true_intro (conj (P_oecb a H _ _ _ Ca Ea) (P_oecb b H0 _ _ _ Cb Eb))) (P_oecb c H1 _ _ _ Cc Ec))).
    - (* NamedExpr *) apply rbind_inl in Ht as (v & Ev & Ht). pose proof (P_ecore _ IHe _ _ _ Hc Ev) as Hv. apply okE_ecore in Hv.
      apply okE_cok. destruct (mem t bd).
      + injection Ht as <-. apply okE_named. exact Hv.
      + apply rbind_inl in Ht as (r & Er & Ht). exact (okE_stored n t r e' (okE_get_assign _ _ _ _ Hv Er) Ht).
    - (* Lambda *) apply rbind_inl in Ht as (kd' & Ekd & Ht). apply rbind_inl in Ht as (de' & Ede & Ht). apply rbind_inl in Ht as (b' & Eb & Ht).
      injection Ht as <-.
      apply andb_prop in Hc as [Hc Hkd]. apply andb_prop in Hc as [Hc Hde]. apply andb_prop in Hc as [Hc Hlk]. apply andb_prop in Hc as [Hb Hld].
      split; [|reflexivity]. cbn [cok core]. fold (ecore b').
      rewrite (P_ecore _ IHe _ _ _ Hb Eb), (rmap_length _ _ _ Ekd), (rmap_length _ _ _ Ede), Hld, Hlk.
      exact (andb_true_intro (conj (P_list ecore P_ecore _ _ _ _ H0 Hde Ede) (P_olist _ _ _ _ H Hkd Ekd))).
    - (* DictComp *) apply rbind_inl in Ht as (ns & Ens & Ht). apply rbind_inl in Ht as (gs' & Egs & Ht).
      apply rbind_inl in Ht as (k & Ek & Ht). apply rbind_inl in Ht as (v & Ev & Ht). injection Ht as <-.
      apply andb_prop in Hc as [Hc Hgs]. apply andb_prop in Hc as [Hc Hlen]. apply andb_prop in Hc as [Hk Hv].
      destruct (comp_gens _ _ _ _ _ H Hgs Ens Egs) as [HG HL]. split; [|reflexivity]. cbn [cok core]. fold (ecore k) (ecore v). unfold comprehension in *.
      rewrite (P_ecore _ IHe1 _ _ _ Hk Ek), (P_ecore _ IHe2 _ _ _ Hv Ev), HL, Hlen. exact HG.
    - (* IfExp *) apply rbind_inl in Ht as (t & Et & Ht). apply rbind_inl in Ht as (b & Eb & Ht). apply rbind_inl in Ht as (o & Eo & Ht).
      injection Ht as <-. apply andb_prop in Hc as [Hc H3]. apply andb_prop in Hc as [H1 H2]. split; [|reflexivity].
      exact (andb_true_intro (conj (andb_true_intro (conj (P_ecore _ IHe1 _ _ _ H1 Et) (P_ecore _ IHe2 _ _ _ H2 Eb))) (P_ecore _ IHe3 _ _ _ H3 Eo))).
  Qed.

  Theorem transf_keeps_core : forall e bd inn e', core e = true -> transf n bd inn e = inl e' ->
    core e' = true /\ is_starred e' = is_starred e.
  Proof. intros e. exact (P_core e (transf_core_all e)). Qed.

  Theorem transf_keeps_ecore e : keeps ecore e.
  Proof. exact (P_ecore e (transf_core_all e)). Qed.

  Theorem transf_keeps_index : forall s bd inn s', index_ok s = true -> transf n bd inn s = inl s' ->
    ecore s' = true \/ index_ok s' = true.
  Proof. intros s. exact (P_index s (transf_core_all s)). Qed.

  Theorem transf_keeps_gen_core e : keeps gen_core e.
  Proof. exact (P_gen e (transf_core_all e)). Qed.

  Theorem transf_keeps_oecb o : forall bd inn o', oecb o = true -> topt bd inn o = inl o' -> oecb o' = true.
  Proof. apply P_oecb. destruct o as [x|]; [exact (transf_core_all x)|exact I]. Qed.

  Theorem transf_keeps_core_top e : keeps core_top e.
  Proof.
    intros bd inn e' Hc H. unfold core_top in *. apply orb_true_iff. apply orb_prop in Hc as [Hc|Hc].
    - left. exact (transf_keeps_ecore e bd inn e' Hc H).
    - right. exact (transf_keeps_gen_core e bd inn e' Hc H).
  Qed.
End Core.
