(* C02 / C04: the text produced by the unparser model never contains a line break,
   for every expression tree whose identifiers and opaque number/bytes reprs contain none. *)
From Coq Require Import String Ascii List ZArith NArith Bool Arith Lia.
From OL Require Import Sexp PyAst Unparse StrLit.
From OLGen Require Import Tables.
Import ListNotations.
Open Scope list_scope.

Definition id_ok (s : ident) : bool := no_newline (s2t s).
Definition oid_ok (o : option ident) : bool := match o with Some s => id_ok s | None => true end.

Definition const_ok (c : const) : bool :=
  match c with
  | CFloat r | CComplex r | CBytes r => no_newline r
  | _ => true
  end.

(* the conversion code of a formatted value, which is printed as the character after `!`, is not 10 or 13 *)
Fixpoint lex_ok (e : expr) : bool :=
  let all := fun l => forallb lex_ok l in
  let opt := fun (o : option expr) => match o with Some x => lex_ok x | None => true end in
  let gens := fun (gs : list comprehension) =>
    forallb (fun g => match g with (t, i, ifs, _) => lex_ok t && lex_ok i && forallb lex_ok ifs end) gs in
  match e with
  | Name i => id_ok i
  | Constant c => const_ok c
  | JoinedStr vs => all vs
  | FormattedValue v conv f => lex_ok v && opt f && negb (Z.eqb conv 10) && negb (Z.eqb conv 13)
  | Starred v | UnaryOp _ v | YieldFrom v | Await v => lex_ok v
  | BinOp l _ r => lex_ok l && lex_ok r
  | BoolOp _ vs | EList vs | ETuple vs | ESet vs => all vs
  | EDict ks vs => forallb opt ks && all vs
  | Compare l _ cs => lex_ok l && all cs
  | Attribute v a => lex_ok v && id_ok a
  | Subscript v s => lex_ok v && lex_ok s
  | Slice a b c => opt a && opt b && opt c
  | Call f args kws => lex_ok f && all args && forallb (fun kw => oid_ok (fst kw) && lex_ok (snd kw)) kws
  | NamedExpr t v => id_ok t && lex_ok v
  | Lambda po ar va ko kd kw de body =>
      forallb id_ok po && forallb id_ok ar && oid_ok va && forallb id_ok ko && forallb opt kd && oid_ok kw && all de && lex_ok body
  | ListComp x gs | SetComp x gs | GeneratorExp x gs => lex_ok x && gens gs
  | DictComp k v gs => lex_ok k && lex_ok v && gens gs
  | IfExp t b o => lex_ok t && lex_ok b && lex_ok o
  | Yield v => opt v
  | Other _ => true
  end.

Definition tok_ok (t : tok) : bool := no_newline (tok_text t).
Definition nn (ts : list tok) : bool := forallb tok_ok ts.

Lemma nn_render : forall ts, nn ts = true -> no_newline (render ts) = true.
Proof.
  induction ts as [|t ts IH]; intros H; [reflexivity|]. cbn in H. apply andb_prop in H as [H1 H2].
  unfold render. cbn [flat_map]. rewrite no_newline_app. unfold tok_ok in H1. rewrite H1. apply IH. exact H2.
Qed.

Lemma nn_app : forall a b, nn (a ++ b) = nn a && nn b.
Proof. intros. unfold nn. apply forallb_app. Qed.

Lemma nn_cons : forall t ts, nn (t :: ts) = tok_ok t && nn ts.
Proof. reflexivity. Qed.

Lemma nn_join : forall sep ls, nn sep = true -> forallb nn ls = true -> nn (join sep ls) = true.
Proof.
  intros sep ls Hs. induction ls as [|x r IH]; intros H; [reflexivity|].
  cbn in H. apply andb_prop in H as [Hx Hr]. cbn [join].
  destruct r as [|y r']; [exact Hx|]. rewrite !nn_app, Hx, Hs. cbn. apply IH. exact Hr.
Qed.

Lemma nn_paren : forall b ts, nn ts = true -> nn (paren b ts) = true.
Proof. intros [|] ts H; cbn [paren]; [|exact H]. rewrite nn_cons, nn_app, H. reflexivity. Qed.

Lemma nn_flat_map {X} (f : X -> list tok) l : forallb (fun x => nn (f x)) l = true -> nn (flat_map f l) = true.
Proof.
  induction l as [|x r IH]; intros H; [reflexivity|]. cbn in H. apply andb_prop in H as [H1 H2].
  cbn [flat_map]. rewrite nn_app, H1. apply IH. exact H2.
Qed.

Lemma forallb_map {X Y} (f : X -> Y) (p : Y -> bool) l : forallb p (map f l) = forallb (fun x => p (f x)) l.
Proof. induction l as [|x r IH]; cbn; [reflexivity|]. rewrite IH. reflexivity. Qed.
Lemma forallb_impl {X} (A : X -> Prop) (p q : X -> bool) : (forall x, A x -> p x = true -> q x = true) ->
  forall l, Forall A l -> forallb p l = true -> forallb q l = true.
Proof.
  intros Hpq. induction 1 as [|x r Ax _ IH]; intros H; [reflexivity|]. cbn [forallb] in *. apply andb_prop in H as [H1 H2].
  rewrite (Hpq x Ax H1), (IH H2). reflexivity.
Qed.

Lemma binop_text_ok o : tok_ok (TP (binop_text o)) = true. Proof. destruct o; reflexivity. Qed.
Lemma unop_text_ok o : tok_ok (TP (unop_text o)) = true. Proof. destruct o; reflexivity. Qed.
Lemma boolop_text_ok o : tok_ok (TP (" " ++ boolop_text o ++ " ")%string) = true. Proof. destruct o; reflexivity. Qed.
Lemma cmpop_text_ok o : tok_ok (TP (cmpop_text o)) = true. Proof. destruct o; reflexivity. Qed.

Lemma flipq_quote q : is_quote q -> is_quote (flipq q).
Proof. intros [-> | ->]; [right|left]; reflexivity. Qed.

Lemma quote_ok q : is_quote q -> no_newline [q] = true.
Proof. intros [-> | ->]; reflexivity. Qed.

Lemma replace_go_ok pat rep : no_newline rep = true -> forall t skip, no_newline t = true -> no_newline (replace_go pat rep skip t) = true.
Proof.
  intros Hr. induction t as [|c r IH]; intros skip Ht; [reflexivity|].
  cbn in Ht. apply andb_prop in Ht as [Hc Ht]. cbn [replace_go].
  destruct skip as [|k]; [|apply IH; exact Ht].
  destruct (is_prefix pat (c :: r)).
  - rewrite no_newline_app, Hr. apply IH. exact Ht.
  - cbn. rewrite Hc. apply IH. exact Ht.
Qed.

Lemma uint_ok d : no_newline (s2t (DecimalString.NilEmpty.string_of_uint d)) = true.
Proof. induction d; cbn [DecimalString.NilEmpty.string_of_uint]; [reflexivity|..]; exact IHd. Qed.

Lemma nzuint_ok d : no_newline (s2t (DecimalString.NilZero.string_of_uint d)) = true.
Proof. destruct d; [reflexivity|..]; apply (uint_ok (_ d)). Qed.

Lemma z2s_ok z : no_newline (s2t (z2s z)) = true.
Proof.
  unfold z2s, DecimalString.NilZero.string_of_int. destruct (Z.to_int z) as [d|d].
  - apply nzuint_ok.
  - change (no_newline (45%N :: s2t (DecimalString.NilZero.string_of_uint d)) = true).
    cbn [no_newline forallb]. apply nzuint_ok.
Qed.

Lemma const_text_ok q c : is_quote q -> const_ok c = true -> no_newline (const_text q c) = true.
Proof.
  intros Hq Hc. destruct c; cbn [const_text]; try reflexivity.
  2,3: (* CFloat, CComplex *) unfold nonfinite_text, replace_text; apply replace_go_ok; [reflexivity|]; apply replace_go_ok; [reflexivity|exact Hc].
  - (* CInt *) apply z2s_ok.
  - (* CStr *) change (q :: escape q s ++ [q]) with ([q] ++ escape q s ++ [q]).
    rewrite !no_newline_app, (quote_ok q Hq), (escape_single_line q s Hq). reflexivity.
  - (* CBytes *) exact Hc.
Qed.

Lemma attach_defaults_ok : forall names ds, forallb nn names = true -> forallb nn ds = true ->
  forallb nn (attach_defaults names ds) = true.
Proof.
  induction names as [|n r IH]; intros ds Hn Hd; [reflexivity|].
  cbn in Hn. apply andb_prop in Hn as [H1 H2]. cbn [attach_defaults].
  destruct (Nat.leb (length ds) (length r)).
  - cbn. rewrite H1. apply IH; assumption.
  - destruct ds as [|d ds'].
    + cbn. rewrite H1. apply IH; [assumption|reflexivity].
    + cbn in Hd. apply andb_prop in Hd as [Hd1 Hd2].
      cbn [forallb]. rewrite nn_app, H1, nn_cons, Hd1. cbn. apply IH; assumption.
Qed.

Lemma attach_kwdefaults_ok : forall names ds, forallb nn names = true ->
  forallb (fun d => match d with Some x => nn x | None => true end) ds = true ->
  forallb nn (attach_kwdefaults names ds) = true.
Proof.
  induction names as [|n r IH]; intros ds Hn Hd.
  - destruct ds as [|[d|] ds]; reflexivity.
  - cbn in Hn. apply andb_prop in Hn as [H1 H2].
    destruct ds as [|[d|] ds']; cbn [attach_kwdefaults].
    + cbn. rewrite H1, H2. reflexivity.
    + cbn in Hd. apply andb_prop in Hd as [Hd1 Hd2].
      cbn [forallb]. rewrite nn_app, H1, nn_cons, Hd1. cbn. apply IH; assumption.
    + cbn in Hd. cbn [forallb]. rewrite H1. cbn. apply IH; assumption.
Qed.

Lemma forallb_firstn_skipn {X} (p : X -> bool) n l : forallb p l = true -> forallb p (firstn n l) && forallb p (skipn n l) = true.
Proof. intros H. rewrite <- forallb_app, firstn_skipn. exact H. Qed.

Section Main.
  (* [U] stands where the helpers of Unparse.v (its Section Helpers) take their recursive call; below it is always [utoks] *)
  Variable U : nat -> N -> expr -> list tok.
  Definition Uok (e : expr) : Prop := lex_ok e = true -> forall slot q, is_quote q -> nn (U slot q e) = true.
End Main.

(* for an f-string or a tuple also the statements of the items, which are printed one by one when the f-string is a format
   spec and when the tuple is an index with a slice in it *)
Definition P' (e : expr) : Prop :=
  Uok utoks e /\ match e with JoinedStr vs | ETuple vs => Forall (Uok utoks) vs | _ => True end.

Lemma Forall_P'_Uok l : Forall P' l -> Forall (Uok utoks) l.
Proof. intros H. eapply Forall_impl; [|exact H]. intros a [Ha _]. exact Ha. Qed.

Lemma fbody_ok : forall vs, Forall (Uok utoks) vs -> forallb lex_ok vs = true ->
  forall split sl qq prev, is_quote qq -> nn split = true -> nn (fbody (fun s q0 x => utoks s q0 x) split sl qq vs prev) = true.
Proof.
  induction vs as [|v r IH]; intros HF HL split sl qq prev Hq Hs; [reflexivity|].
  inversion HF as [|? ? Hv Hr]; subst. cbn in HL. apply andb_prop in HL as [HLv HLr].
  cbn [fbody]. rewrite nn_app. apply andb_true_iff. split.
  - destruct v; try reflexivity.
    + destruct c; try reflexivity.
      rewrite nn_app. apply andb_true_iff. split.
      * destruct split; [reflexivity|]. destruct (_ && _); [exact Hs|reflexivity].
      * cbn. rewrite double_braces_single_line; [reflexivity|]. apply escape_single_line. exact Hq.
    + apply Hv; assumption.
  - apply IH; assumption.
Qed.

Lemma all_sub_ok (l : list expr) slot q :
  Forall (Uok utoks) l -> forallb lex_ok l = true -> is_quote q ->
  forallb nn (map (utoks slot q) l) = true.
Proof.
  intros HF HL Hq. rewrite forallb_map. refine (forallb_impl _ _ _ _ l HF HL). intros x Hx Lx. apply Hx; assumption.
Qed.
Lemma all_sub_P' (l : list expr) slot q : Forall P' l -> forallb lex_ok l = true -> is_quote q ->
  forallb nn (map (utoks slot q) l) = true.
Proof. intros HF. exact (all_sub_ok l slot q (Forall_P'_Uok l HF)). Qed.

Lemma names_ok (l : list ident) : forallb id_ok l = true -> forallb nn (map (fun n => [TName n]) l) = true.
Proof.
  rewrite forallb_map. refine (forallb_impl (fun _ => True) _ _ _ l _); [|apply Forall_forall; intros n _; exact I].
  intros n _ Hn. cbn [nn forallb]. rewrite andb_true_r. exact Hn.
Qed.

Lemma comps_ok gs q : is_quote q -> Pg P' gs ->
  forallb (fun g => match g with (t, i, ifs, _) => lex_ok t && lex_ok i && forallb lex_ok ifs end) gs = true ->
  nn (comps_toks (fun s q0 x => utoks s q0 x) q gs) = true.
Proof.
  intros Hq HF HL. unfold comps_toks. apply nn_join; [reflexivity|]. rewrite forallb_map.
  refine (forallb_impl _ _ _ _ gs HF HL). clear HL. intros [[[t i] ifs] a] ([Ht _] & [Hi _] & Hifs) HL.
  apply andb_prop in HL as [HL H0]. apply andb_prop in HL as [HL H1].
  unfold comp_toks. rewrite nn_app. apply andb_true_iff. split; [destruct a; reflexivity|].
  rewrite nn_cons, nn_app, nn_cons, nn_app. rewrite (Ht HL), (Hi H1) by exact Hq. cbn.
  apply nn_flat_map. refine (forallb_impl _ _ _ _ ifs Hifs H0). intros f [Hf _] Lf. cbn. apply Hf; assumption.
Qed.

(* [split_lex HL] takes [lex_ok] of a node apart: [HL] keeps the first conjunct and the others are named from the right,
   [HL0] the last, [HL1] the one before it, and so on *)
Ltac split_lex H :=
  cbn [lex_ok] in H;
  repeat match type of H with
         | (_ && _) = true => let H2 := fresh "HL" in apply andb_prop in H as [H H2]
         end.

Lemma opt_sub_ok (o : option expr) slot q :
  match o with Some x => P' x | None => True end ->
  match o with Some x => lex_ok x | None => true end = true -> is_quote q ->
  nn (match o with Some x => utoks slot q x | None => [] end) = true.
Proof. destruct o; intros H HL Hq; [apply H; assumption|reflexivity]. Qed.

Lemma join_sub_ok sep (l : list expr) slot q :
  nn sep = true -> Forall P' l -> forallb lex_ok l = true -> is_quote q -> nn (join sep (map (utoks slot q) l)) = true.
Proof. intros Hs HF HL Hq. apply nn_join; [exact Hs|apply all_sub_P'; assumption]. Qed.

(* One step through the tokens of a node, decided by the shape of the list: a fixed fragment has no line break by
   computation; the tokens of a child, of an optional child, of a list of children or of the comprehension clauses have
   none by the induction hypotheses. *)
Ltac nn_step :=
  match goal with
  | |- nn (paren _ _) = true => apply nn_paren
  | |- nn (_ :: _) = true => rewrite nn_cons; apply andb_true_iff; split
  | |- nn (_ ++ _) = true => rewrite nn_app; apply andb_true_iff; split
  | |- nn [] = true => reflexivity
  | |- tok_ok (TP (binop_text _)) = true => apply binop_text_ok
  | |- tok_ok (TP (unop_text _)) = true => apply unop_text_ok
  | |- tok_ok (TP (cmpop_text _)) = true => apply cmpop_text_ok
  | |- tok_ok (TP _) = true => reflexivity
  | |- tok_ok (TName _) = true => assumption
  | IH : P' ?e |- nn (utoks _ _ ?e) = true => apply IH; assumption
  | |- nn (match ?o with Some _ => _ | None => [] end) = true => apply opt_sub_ok; assumption
  | |- nn (join [TP ","] (map (fun x => utoks _ _ x) _)) = true => apply join_sub_ok; [reflexivity|assumption..]
  | |- nn (comps_toks _ _ _) = true => apply comps_ok; assumption
  end.

Lemma params_ok all : forallb nn all = true -> nn (match all with [] => [] | _ :: _ => TP " " :: join [TP ","] all end) = true.
Proof. intros H. destruct all as [|x r]; [reflexivity|]. repeat nn_step. apply nn_join; [reflexivity|exact H]. Qed.

Lemma dict_ok : forall ks l1 l2 q, Forall (Po P') ks ->
  forallb (fun o : option expr => match o with Some x => lex_ok x | None => true end) ks = true -> is_quote q ->
  forallb nn l1 = true -> forallb nn l2 = true ->
  forallb nn (dict_toks (fun s q0 x => utoks s q0 x) q ks l1 l2) = true.
Proof.
  induction ks as [|k ks IH]; intros l1 l2 q HF HL Hq H1 H2; [reflexivity|].
  inversion HF as [|? ? Hk Hks]; subst. cbn [forallb] in HL. apply andb_prop in HL as [HLk HLks].
  destruct l1 as [|v1 l1]; [destruct k; reflexivity|]. destruct l2 as [|v2 l2]; [destruct k; reflexivity|].
  cbn [forallb] in H1, H2. apply andb_prop in H1 as [A1 A2]. apply andb_prop in H2 as [B1 B2].
  destruct k as [k|]; cbn [dict_toks forallb]; apply andb_true_iff; (split; [|apply IH; assumption]).
  - repeat nn_step; [apply Hk; assumption|exact A1].
  - repeat nn_step. exact B1.
Qed.

Theorem utoks_ok' : forall e, P' e.
Proof.
  (* The items of an f-string or a tuple have their hypotheses as they are.  A node whose tokens are fixed fragments around
     those of its children, lists of children, optional children and comprehension clauses is done by nn_step alone: Name,
     Starred, BinOp, UnaryOp, EList, ESet, Attribute, Slice, NamedExpr, the four comprehensions, IfExp, YieldFrom, Await,
     Other.  The others follow. *)
  induction e as [i | c | vs IHvs | v conv spec IHv IHspec | v IHv | l o r IHl IHr | o vs IHvs | o v IHv | l IHl | l IHl | l IHl
                 | ks vs IHks IHvs | l ops cs IHl IHcs | v a IHv | v s IHv IHs | a b c IHa IHb IHc | f args kws IHf IHargs IHkws
                 | t v IHv | po ar va ko kd kw de body IHkd IHde IHbody | x gs IHx IHgs | x gs IHx IHgs | x gs IHx IHgs
                 | k v gs IHk IHv IHgs | t b o IHt IHb IHo | v IHv | v IHv | v IHv | k] using expr_ind';
    (split; [intros HL slot q Hq; cbn [utoks]; split_lex HL; apply nn_paren; try solve [repeat nn_step]
            | first [exact I | apply Forall_P'_Uok; assumption]]).
  - (* Constant *) repeat nn_step. exact (const_text_ok _ _ (flipq_quote q Hq) HL).
  - (* JoinedStr *)
    assert (Hqq := flipq_quote q Hq).
    repeat nn_step; try exact (quote_ok _ Hqq).
    apply fbody_ok; try assumption.
    + apply Forall_P'_Uok. assumption.
    + repeat nn_step; exact (quote_ok _ Hqq).
  - (* FormattedValue *) repeat nn_step.
    + destruct (starts_with _ _); reflexivity.
    + destruct (Z.eqb conv (-1)); [reflexivity|]. unfold nn. cbn [forallb]. unfold tok_ok. cbn [tok_text no_newline forallb].
      apply negb_true_iff, Z.eqb_neq in HL1, HL0.
      rewrite (proj2 (N.eqb_neq (Z.to_N conv) 10)), (proj2 (N.eqb_neq (Z.to_N conv) 13)) by lia. reflexivity.
    + destruct spec as [sp|]; [|reflexivity]. cbn [Po] in IHspec.
      destruct sp; try reflexivity.
      repeat nn_step.
      apply fbody_ok; try assumption; [|reflexivity].
      destruct IHspec as [_ H]. exact H.
  - (* BoolOp *) apply join_sub_ok; try assumption. unfold nn. cbn [forallb]. rewrite boolop_text_ok. reflexivity.
  - (* ETuple *) destruct l as [|x [|y r]]; [reflexivity| |repeat nn_step].
    (* (x,) *) apply Forall_inv in IHl. cbn [forallb] in HL. rewrite andb_true_r in HL. repeat nn_step.
  - (* EDict *) repeat nn_step. apply nn_join; [reflexivity|].
    apply dict_ok; try assumption; apply all_sub_P'; assumption.
  - (* Compare *) repeat nn_step.
    revert ops. induction cs as [|c0 cs IH]; intros ops; [reflexivity|].
    apply Forall_cons_iff in IHcs as [Hc Hcs]. cbn [forallb] in HL0. apply andb_prop in HL0 as [A B].
    destruct ops as [|o ops]; [reflexivity|]. cbn [compare_toks]. repeat nn_step. apply IH; assumption.
  - (* Subscript *) repeat nn_step.
    assert (Hs : nn (utoks slot_Subscript_slice q s) = true) by (apply IHs; assumption).
    destruct s; try exact Hs.
    destruct (existsb _ elts); [|exact Hs].
    (* an index tuple printed without parentheses: its items one by one *)
    destruct IHs as [_ IHitems]. cbn [lex_ok] in HL0.
    repeat nn_step; [|destruct elts as [|? [|? ?]]; reflexivity].
    apply nn_join; [reflexivity|]. apply all_sub_ok; assumption.
  - (* Call *) repeat nn_step.
    assert (Hall : nn (join [TP ","] (map (utoks slot_Call_arg q) args ++ map (kw_toks (fun s q0 x => utoks s q0 x) q) kws)) = true).
    { apply nn_join; [reflexivity|]. rewrite forallb_app, (all_sub_P' args _ q IHargs HL1 Hq), forallb_map.
      refine (forallb_impl _ _ _ _ kws IHkws HL0). clear HL0. intros [k v] Hv HL0.
      cbn [fst snd] in *. apply andb_prop in HL0 as [A1 A2]. unfold kw_toks. cbn [fst snd].
      destruct k as [k|]; repeat nn_step. }
    destruct args as [|x [|y r]]; try exact Hall. destruct kws; [|exact Hall].
    (* f(x): the only argument stands in a slot of its own *)
    apply Forall_inv in IHargs. cbn [forallb] in HL1. rewrite andb_true_r in HL1. repeat nn_step.
  - (* Lambda *) repeat nn_step. apply params_ok. rewrite !forallb_app. repeat (apply andb_true_intro; split).
    + assert (H0 : forallb nn (attach_defaults (map (fun n => [TName n]) (po ++ ar)) (map (utoks slot_Lambda_default q) de)) = true).
      { apply attach_defaults_ok; [apply names_ok; rewrite forallb_app, HL, HL6; reflexivity|apply all_sub_P'; assumption]. }
      destruct po; [exact H0|]. rewrite forallb_app. exact (forallb_firstn_skipn _ _ _ H0).
    + destruct va as [n|]; [|destruct ko; reflexivity]. cbn [forallb]. rewrite andb_true_r. repeat nn_step.
    + apply attach_kwdefaults_ok; [apply names_ok; assumption|].
      rewrite forallb_map. refine (forallb_impl _ _ _ _ kd IHkd HL3). intros [d|] Hd Ld; [apply Hd; assumption|reflexivity].
    + destruct kw as [n|]; [|reflexivity]. cbn [forallb]. rewrite andb_true_r. repeat nn_step.
  - (* Yield *) destruct v as [v|]; cbn [Po] in IHv; repeat nn_step.
Qed.

(* C02/C04: the unparser never emits a line break *)
Theorem unparse_single_line : forall e, lex_ok e = true -> no_newline (unparse e) = true.
Proof.
  intros e H. unfold unparse, unparse_toks. apply nn_render. apply (proj1 (utoks_ok' e)); [exact H|right; reflexivity].
Qed.

(* nothing is hidden in the hypothesis: a tree made of names, numbers and strings satisfies it whatever the strings contain *)
Example lex_ok_example :
  lex_ok (Call (Name "print") [Constant (CStr [10; 13; 39; 34; 92]%N); JoinedStr [Constant (CStr [10]%N); FormattedValue (Name "x") 114%Z None]] []) = true.
Proof. reflexivity. Qed.
