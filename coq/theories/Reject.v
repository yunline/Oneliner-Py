(* C08: unsupported constructs are rejected.  Over the converter model: a statement kind outside the
   dispatch table that the traversal reaches makes the whole conversion fail, at any nesting depth and in
   any position; so do yield / yield from / await at the head of any converted expression. *)
From Coq Require Import String List ZArith Bool Arith.
From OL Require Import Sexp PyAst Namespace Lower.
From OLGen Require Import Tables.
Import ListNotations.
Open Scope string_scope.
Open Scope list_scope.

Definition is_unsupported (s : stmt) : bool := match s with SUnsupported _ => true | _ => false end.

(* the dispatch table of the code, as generated from it, has exactly these keys; that [stmt] has one constructor for each
   of them except Module, and [SUnsupported] for every other kind, is read off PyAst.stmt_of *)
Definition supported_kinds : list string :=
  ["AnnAssign"; "Assign"; "AugAssign"; "Break"; "ClassDef"; "Continue"; "Expr"; "For"; "FunctionDef"; "Global"; "If";
   "Import"; "ImportFrom"; "Module"; "Nonlocal"; "Pass"; "Return"; "While"].
Lemma dispatch_table_kinds : map fst dispatch_table = supported_kinds.
Proof. vm_compute. reflexivity. Qed.

Definition failed {X} (r : res X) : Prop := exists e, r = inr e.

Lemma rbind_failed {X Y} (r : res X) (f : X -> res Y) : failed r -> failed (rbind r f).
Proof. intros [e ->]. exists e. reflexivity. Qed.
Lemma rbind_failed_k {X Y} (r : res X) (f : X -> res Y) : (forall x, r = inl x -> failed (f x)) -> failed (rbind r f).
Proof. intros H. destruct r as [x|e]; [exact (H x eq_refl)|exists e; reflexivity]. Qed.

Section Blocks.
  Variable cfg : config.
  Variable L : ctx -> path -> stmt -> res (list expr).

  Lemma block_failed (Q : stmt -> bool) c : forall b, Forall (fun s => Q s = true -> forall p, failed (L c p s)) b ->
    ex_live Q b = true -> forall p br i, failed (lower_block cfg L c p br i b).
  Proof.
    induction b as [|s rest IH]; intros HQ Hr p br i; [discriminate|].
    apply Forall_cons_iff in HQ as [Hs HQ]. cbn [ex_live] in Hr. cbn [lower_block].
    apply orb_prop in Hr as [Hr|Hr]; [apply rbind_failed; exact (Hs Hr _)|].
    apply rbind_failed_k. intros es _. destruct (is_interrupt s); [discriminate|].
    destruct rest as [|s2 rest']; [discriminate|]. apply rbind_failed. exact (IH HQ Hr p br (S i)).
  Qed.
End Blocks.

(* a statement reached by the traversal (dead code after break/continue/return is not converted at all) *)
Definition reaches_unsupported (s : stmt) : bool := visits is_unsupported s.

Theorem unsupported_stmt_rejected : forall cfg s c p,
  reaches_unsupported s = true -> failed (lower_stmt cfg c p s).
Proof.
  intros cfg. unfold reaches_unsupported.
  assert (blk : forall b, Forall (fun s => forall c p, visits is_unsupported s = true -> failed (lower_stmt cfg c p s)) b ->
            ex_live (visits is_unsupported) b = true ->
            forall c p br i, failed (lower_block cfg (fun c0 p0 s0 => lower_stmt cfg c0 p0 s0) c p br i b)).
  { intros b Hb Hl c. apply (block_failed cfg _ (visits is_unsupported)); [|exact Hl].
    eapply Forall_impl; [|exact Hb]. intros s Hs Hq p. exact (Hs c p Hq). }
  (* [n], [ln] below are the names [stmt_ind'] gives the name and line number of a def / class *)
  induction s using stmt_ind'; intros c p Hv; cbn [visits is_unsupported orb] in Hv; try discriminate; cbn [lower_stmt].
  (* SIf, SWhile, SFor: in the body, or else in the else branch *)
  1-3: apply orb_prop in Hv as [Hv|Hv];
         [apply rbind_failed; exact (blk _ H Hv _ _ _ _)
         |apply rbind_failed_k; intros b' _; apply rbind_failed; exact (blk _ H0 Hv _ _ _ _)].
  - (* SFunctionDef *)
    destruct (find_inner (c_nsp c) n ln) as [fn|]; [|exists ERuntime; reflexivity].
    destruct (n_kind fn); [exists EAssert; reflexivity| |exists EAssert; reflexivity].
    apply rbind_failed_k. intros ds _. apply rbind_failed_k. intros kds _. apply rbind_failed. exact (blk _ H Hv _ _ _ _).
  - (* SClassDef *)
    destruct (find_inner (c_nsp c) n ln) as [cn|]; [|exists ERuntime; reflexivity].
    destruct (n_kind cn); [exists EAssert; reflexivity..|]. apply rbind_failed. exact (blk _ H Hv _ _ _ _).
  - (* SUnsupported *) exists ERuntime. reflexivity.
Qed.

Lemma generate_nsp_global lt root g : generate_nsp lt root = inl g -> n_kind g = NGlobal.
Proof.
  unfold generate_nsp. destruct root as [k name ln syms fr nl ps ms ch]. intros H.
  apply rbind_inl in H as ([[inner marks] nx] & _ & H). injection H as <-. reflexivity.
Qed.

Lemma break_outside_loop : forall cfg n r p, lower_stmt cfg (mkCtx n [] r) p SBreak = inr ESyntax.
Proof. reflexivity. Qed.
Lemma continue_outside_loop : forall cfg n r p, lower_stmt cfg (mkCtx n [] r) p SContinue = inr ESyntax.
Proof. reflexivity. Qed.
Lemma return_outside_function : forall cfg c p v, n_kind (c_nsp c) <> NFunction -> lower_stmt cfg c p (SReturn v) = inr ESyntax.
Proof. intros cfg c p v H. cbn [lower_stmt]. destruct (n_kind (c_nsp c)); try reflexivity. contradiction. Qed.

Lemma interrupt_fails_at_top cfg g p s : n_kind g = NGlobal -> is_interrupt s = true ->
  failed (lower_stmt cfg (mkCtx g [] false) p s).
Proof.
  intros Hg Hi. exists ESyntax. destruct s; try discriminate.
  - apply break_outside_loop.
  - apply continue_outside_loop.
  - apply return_outside_function. cbn [c_nsp]. rewrite Hg. discriminate.
Qed.

(* [ex_live] stops at a break / continue / return, [existsb] does not: with the interrupt itself counted as a hit, what lies
   behind it need not be reached.  At module level the interrupt is refused too (interrupt_fails_at_top) *)
Lemma existsb_ex_live (Q : stmt -> bool) : forall b, existsb Q b = true -> ex_live (fun s => Q s || is_interrupt s) b = true.
Proof.
  induction b as [|s r IH]; intros H; [discriminate|]. cbn [existsb ex_live] in *.
  destruct (Q s); [reflexivity|]. destruct (is_interrupt s); [reflexivity|]. exact (IH H).
Qed.

Theorem unsupported_module_rejected : forall cfg root body,
  existsb reaches_unsupported body = true -> failed (lower_module cfg root body).
Proof.
  intros cfg root body H. unfold lower_module. apply rbind_failed_k. intros g Hg%generate_nsp_global. cbv zeta. apply rbind_failed.
  apply (block_failed cfg _ (fun s => reaches_unsupported s || is_interrupt s)); [|exact (existsb_ex_live _ body H)].
  apply Forall_forall. intros s _ Hq p. apply orb_prop in Hq as [Hq|Hq].
  - exact (unsupported_stmt_rejected cfg s _ p Hq).
  - exact (interrupt_fails_at_top cfg g p s Hg Hq).
Qed.

Lemma yield_rejected : forall n comp inn v, transf n comp inn (Yield v) = inr ERuntime.
Proof. reflexivity. Qed.
Lemma yield_from_rejected : forall n comp inn v, transf n comp inn (YieldFrom v) = inr ERuntime.
Proof. reflexivity. Qed.
Lemma await_rejected : forall n comp inn v, transf n comp inn (Await v) = inr ERuntime.
Proof. reflexivity. Qed.

(* non-vacuity: an unsupported statement deep inside a supported program *)
Example reject_example :
  reaches_unsupported
    (SFunctionDef "f" 1%Z (mkArgs [] [] None [] [] None [])
       [SWhile (Name "c") [SIf (Name "d") [SPass; SUnsupported "Try"] []] []] []) = true.
Proof. reflexivity. Qed.

(* C08: a starred element in the target pattern of a comprehension clause (so, in particular, TWO of them) is refused. *)
Fixpoint star_in_target (t : expr) : bool :=
  match t with
  | Starred _ => true
  | ETuple l | EList l => existsb star_in_target l
  | _ => false
  end.

Lemma target_names_tuple_star : forall l,
  Forall (fun t => star_in_target t = true -> failed (target_names t)) l ->
  existsb star_in_target l = true -> failed (target_names (ETuple l)).
Proof.
  induction l as [|x r IH]; intros HF He; [discriminate|]. rewrite target_names_tuple_cons.
  apply Forall_cons_iff in HF as [Hx Hr]. cbn [existsb] in He. apply orb_prop in He as [He|He].
  - apply rbind_failed. exact (Hx He).
  - apply rbind_failed_k. intros a _. apply rbind_failed. exact (IH Hr He).
Qed.

Lemma target_names_star : forall t, star_in_target t = true -> failed (target_names t).
Proof.
  induction t using expr_ind'; intros Hs; try discriminate Hs; [|exact (target_names_tuple_star l H Hs)..].
  (* Starred *) exists ERuntime. reflexivity.
Qed.

Definition clause_star (g : comprehension) : bool := match g with (t, _, _, _) => star_in_target t end.

Lemma gen_names_star : forall gs, existsb clause_star gs = true -> failed (gen_names gs).
Proof.
  induction gs as [|[[[t i] ifs] a] r IH]; intros He; [discriminate|]. cbn [gen_names existsb clause_star] in *.
  destruct a; [exists ERuntime; reflexivity|]. apply orb_prop in He as [He|He].
  - apply rbind_failed. exact (target_names_star t He).
  - apply rbind_failed_k. intros x _. apply rbind_failed. exact (IH He).
Qed.

Theorem starred_comprehension_target_rejected : forall n bd inn x k v gs, existsb clause_star gs = true ->
  failed (transf n bd inn (ListComp x gs)) /\ failed (transf n bd inn (SetComp x gs)) /\
  failed (transf n bd inn (GeneratorExp x gs)) /\ failed (transf n bd inn (DictComp k v gs)).
Proof.
  intros n bd inn x k v gs H. pose proof (gen_names_star gs H) as F.
  repeat split; cbn [transf]; apply rbind_failed; exact F.
Qed.
