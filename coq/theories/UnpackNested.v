(* C13: destructuring of NESTED patterns.  Reference semantics of Python's unpacking on nested sequences, a sequential evaluator
   for the stores the converter emits (temporaries holding tuple(...) of an accessor, user names receiving accessors), and the
   proof that for every pattern - any nesting depth, at most one starred target per level, starred sub-patterns included -
   the emitted stores bind exactly what Python binds, in the same order. *)
From Coq Require Import String List ZArith Bool Arith Lia.
From OL Require Import Sexp PyAst Namespace Lower Unpack UnpackProof Names Fresh.
Import ListNotations.
Open Scope string_scope.
Open Scope list_scope.

Section Nested.
  Variable A : Type.
  Inductive val := VAtom (a : A) | VSeq (l : list val).
  Definition binds := list (ident * val).

  (* Python: target_list = value (language reference 7.2) *)
  Section Items.
    Variable bindf : expr -> val -> option binds.
    (* starred: a starred target has already been met at this level; a second one binds nothing *)
    Fixpoint bind_items (ts : list expr) (l : list val) (starred : bool) {struct ts} : option binds :=
      match ts with
      | [] => match l with [] => Some [] | _ :: _ => None end
      | t0 :: ts' =>
          match t0 with
          | Starred t' =>
              if starred then None
              else
                let k := length ts' in
                if Nat.leb k (length l) then
                  match bindf t' (VSeq (firstn (length l - k) l)), bind_items ts' (skipn (length l - k) l) true with
                  | Some a, Some b => Some (a ++ b)
                  | _, _ => None
                  end
                else None
          | _ =>
              match l with
              | a :: l' =>
                  match bindf t0 a, bind_items ts' l' starred with
                  | Some x, Some y => Some (x ++ y)
                  | _, _ => None
                  end
              | [] => None
              end
          end
      end.
  End Items.

  Fixpoint bind (t : expr) (v : val) {struct t} : option binds :=
    match t with
    | Name x => Some [(x, v)]
    | ETuple ts => match v with VSeq l => bind_items (fun t0 v0 => bind t0 v0) ts l false | VAtom _ => None end
    | EList ts => match v with VSeq l => bind_items (fun t0 v0 => bind t0 v0) ts l false | VAtom _ => None end
    | _ => None
    end.

  Definition env := list (ident * list val).       (* temporaries: name -> the materialised tuple *)
  Fixpoint lookup (E : env) (n : ident) : option (list val) :=
    match E with [] => None | (k, v) :: r => if String.eqb k n then Some v else lookup r n end.

  Definition as_index (e : expr) : option (ident * Z) :=
    match e with
    | Subscript (Name n) i => match int_of i with Some z => Some (n, z) | None => None end
    | _ => None
    end.
  Definition as_slice (e : expr) : option (ident * Z * option Z) :=
    match e with
    | Call (Name f) [Subscript (Name n) (Slice (Some lo) hi None)] [] =>
        if String.eqb f "list" then
          match int_of lo with
          | Some l =>
              match hi with
              | None => Some (n, l, None)
              | Some h => match int_of h with Some hz => Some (n, l, Some hz) | None => None end
              end
          | None => None
          end
        else None
    | _ => None
    end.
  Definition eval_acc (E : env) (e : expr) : option val :=
    match as_index e with
    | Some (n, i) => match lookup E n with Some l => py_index val l i | None => None end
    | None =>
        match as_slice e with
        | Some (n, lo, hi) => match lookup E n with Some l => Some (VSeq (py_slice val l lo hi)) | None => None end
        | None => None
        end
    end.
  (* tmp := tuple(acc) *)
  Definition as_temp (e : expr) : option (ident * expr) :=
    match e with
    | NamedExpr x (Call (Name f) [acc] []) => if String.eqb f "tuple" then Some (x, acc) else None
    | _ => None
    end.
  Definition as_store (e : expr) : option (ident * expr) :=
    match e with NamedExpr x acc => Some (x, acc) | _ => None end.

  Fixpoint run (E : env) (es : list expr) : option (env * binds) :=
    match es with
    | [] => Some (E, [])
    | e :: r =>
        match as_temp e with
        | Some (x, acc) =>
            match eval_acc E acc with
            | Some (VSeq l) => run ((x, l) :: E) r
            | _ => None                                  (* tuple(non-iterable): TypeError *)
            end
        | None =>
            match as_store e with
            | Some (x, acc) =>
                match eval_acc E acc with
                | Some b => match run E r with Some (E', bs) => Some (E', (x, b) :: bs) | None => None end
                | None => None
                end
            | None => None
            end
        end
    end.

  Lemma run_app : forall a b E,
    run E (a ++ b) = match run E a with
                     | Some (E1, b1) => match run E1 b with Some (E2, b2) => Some (E2, b1 ++ b2) | None => None end
                     | None => None
                     end.
  Proof.
    induction a as [|e r IH]; intros b E.
    - cbn [app run]. destruct (run E b) as [[E2 b2]|]; reflexivity.
    - cbn [app run]. destruct (as_temp e) as [[x acc]|].
      + destruct (eval_acc E acc) as [[a0|l]|]; try reflexivity. apply IH.
      + destruct (as_store e) as [[x acc]|]; [|reflexivity].
        destruct (eval_acc E acc) as [v|]; [|reflexivity]. rewrite IH.
        destruct (run E r) as [[E1 b1]|]; [|reflexivity].
        destruct (run E1 b) as [[E2 b2]|]; reflexivity.
  Qed.

  (* a user store is never mistaken for a temporary *)
  Lemma acc_not_temp E sub v x : eval_acc E sub = Some v -> as_temp (NamedExpr x sub) = None.
  Proof.
    intros H. unfold as_temp. destruct sub; try reflexivity.
    destruct sub; try reflexivity. destruct args as [|a0 [|a1 r]]; try reflexivity. destruct keywords; try reflexivity.
    destruct (String.eqb_spec id "tuple") as [->|_]; [|reflexivity].
    exfalso. unfold eval_acc in H. cbn [as_index] in H. unfold as_slice in H.
    destruct a0; try discriminate H. destruct a0_1; try discriminate H. destruct a0_2; try discriminate H.
    destruct lower as [lo|]; try discriminate H. destruct step; discriminate H.
  Qed.

  Lemma bind_items_plain bf t ts l st : (forall t', t <> Starred t') ->
    bind_items bf (t :: ts) l st =
    match l with
    | a :: l' => match bf t a, bind_items bf ts l' st with Some x, Some y => Some (x ++ y) | _, _ => None end
    | [] => None
    end.
  Proof. intros Hns. destruct t; try reflexivity. destruct (Hns _ eq_refl). Qed.

  Lemma bind_pattern (tuple_form : bool) ts v :
    bind (if tuple_form then ETuple ts else EList ts) v =
    match v with VSeq l => bind_items (fun t0 v0 => bind t0 v0) ts l false | VAtom _ => None end.
  Proof. destruct tuple_form; reflexivity. Qed.

  Variable g : nsp.
  Hypothesis Hg : n_kind g = NGlobal.

  Definition tmpname (q : path) : ident := ol "assign" (path_str q).

  Lemma assign_auto_pattern (tuple_form : bool) p ts v :
    assign_auto g p (if tuple_form then ETuple ts else EList ts) v =
    (let! rest := pattern_go (fun p0 t0 v0 => assign_auto g p0 t0 v0) (Name (tmpname p)) (Z.of_nat (length ts)) p ts 0 false in
     ret (NamedExpr (tmpname p) (call (Name "tuple") [v]) :: rest)).
  Proof. destruct tuple_form; reflexivity. Qed.

  (* the temporaries D made for the pattern at position q carry the names of q and of positions under it *)
  Definition below (q : path) (D : env) : Prop := Forall (fun kv => exists q', fst kv = tmpname (q' ++ q)) D.

  Lemma below_cons j q D : below (j :: q) D -> below q D.
  Proof.
    apply Forall_impl. intros kv [q' ->]. exists (q' ++ [j]). rewrite <- app_assoc. reflexivity.
  Qed.

  Lemma lookup_below j q D E : below (j :: q) D -> lookup (D ++ E) (tmpname q) = lookup E (tmpname q).
  Proof.
    induction 1 as [|[k v] D [q' Hk] _ IH]; [reflexivity|]. cbn [app lookup]. cbn [fst] in Hk.
    destruct (String.eqb_spec k (tmpname q)) as [Heq|_]; [|exact IH].
    exfalso. rewrite Hk in Heq. revert Heq. apply helpers_distinct_positions. intros Heq.
    apply (f_equal (@length nat)) in Heq. rewrite app_length in Heq. cbn [length] in Heq. lia.
  Qed.

  (* the stores emitted for target t from an accessor that evaluates to v: run in order they bind what Python binds for
     t = v, and leave behind the temporaries D *)
  Definition stores_bind (t : expr) : Prop :=
    forall q sub E v bs, eval_acc E sub = Some v -> bind t v = Some bs ->
      exists stores D, assign_auto g q t sub = inl stores /\ run E stores = Some (D ++ E, bs) /\ below q D.
  (* what the induction over patterns carries for an element of a target list: stores_bind (Starred _) is vacuous since
     bind refuses Starred; the second conjunct is what a starred element needs *)
  Definition elem_stores_bind (t : expr) : Prop := stores_bind t /\ forall t', t = Starred t' -> stores_bind t'.

  Lemma stores_bind_name x : stores_bind (Name x).
  Proof.
    intros q sub E v bs Hacc Hb. cbn [bind] in Hb. injection Hb as <-.
    exists [NamedExpr x sub], []. split; [apply assign_name; exact Hg|]. split; [|constructor].
    cbn [run app]. rewrite (acc_not_temp E sub v x Hacc). cbn [as_store]. rewrite Hacc. reflexivity.
  Qed.

  Section Level.
    Variable q : path.
    Variable n : nat.                      (* number of targets of this level *)
    Let go := pattern_go (fun p0 t0 v0 => assign_auto g p0 t0 v0) (Name (tmpname q)) (Z.of_nat n) q.
    Let bindi := bind_items (fun t0 v0 => bind t0 v0).

    (* one iteration: the target t0 receives the accessor sub, which selects a.  Its stores leave behind temporaries of
       position index :: q only, which do not hide tmp: the rest of the level, whatever it is, starts from an environment in
       which tmp still holds l *)
    Lemma level_step index t0 sub a b0 rest bR E l :
      stores_bind t0 -> bind t0 a = Some b0 -> lookup E (tmpname q) = Some l -> eval_acc E sub = Some a ->
      (forall E', lookup E' (tmpname q) = Some l ->
         exists stR DR, rest = inl stR /\ run E' stR = Some (DR ++ E', bR) /\ below q DR) ->
      exists stores D,
        (let! a1 := assign_auto g (index :: q) t0 sub in let! b1 := rest in ret (a1 ++ b1)) = inl stores /\
        run E stores = Some (D ++ E, b0 ++ bR) /\ below q D.
    Proof.
      intros HS Eb0 Hlk Hacc Hrest.
      destruct (HS (index :: q) sub E a b0 Hacc Eb0) as (st0 & D0 & Ha0 & Hr0 & HD0).
      destruct (Hrest (D0 ++ E)) as (stR & DR & HgR & HrR & HDR); [rewrite (lookup_below index q D0 E HD0); exact Hlk|].
      exists (st0 ++ stR), (DR ++ D0). split; [|split].
      - rewrite Ha0. cbn [rbind]. rewrite HgR. reflexivity.
      - rewrite run_app, Hr0, HrR, <- app_assoc. reflexivity.
      - apply Forall_app. split; [exact HDR|exact (below_cons index q D0 HD0)].
    Qed.

    Lemma level_go : forall ts, Forall elem_stores_bind ts ->
      forall index starred (pre cur : list val) E bs,
        lookup E (tmpname q) = Some (pre ++ cur) -> position n index starred pre ts cur ->
        bindi ts cur starred = Some bs ->
        exists stores D, go ts index starred = inl stores /\ run E stores = Some (D ++ E, bs) /\ below q D.
    Proof.
      induction ts as [|t ts IH]; intros HF index starred pre cur E bs Hlk Hpos Hb; unfold bindi in Hb.
      - cbn [bind_items] in Hb. destruct cur; [|discriminate]. injection Hb as <-.
        exists [], []. split; [reflexivity|]. split; [reflexivity|constructor].
      - destruct (Forall_inv HF) as [Ht Hst]. pose proof (Forall_inv_tail HF) as HFr.
        destruct (starred_or_plain t) as [[t' ->]|Hns].
        + (* the starred target takes the middle *)
          cbn [bind_items] in Hb. destruct starred; [discriminate|].
          destruct (Nat.leb (length ts) (length cur)) eqn:Hle; [|discriminate]. apply Nat.leb_le in Hle.
          destruct (bind t' (VSeq (firstn (length cur - length ts) cur))) as [b0|] eqn:Eb0; [|discriminate].
          destruct (bind_items (fun t0 v0 => bind t0 v0) ts (skipn (length cur - length ts) cur) true) as [bR|] eqn:EbR; [|discriminate].
          injection Hb as <-.
          set (upper := (Z.of_nat index - Z.of_nat n + 1)%Z).
          set (sub := call (Name "list") [Subscript (Name (tmpname q))
                         (Slice (Some (cint (Z.of_nat index))) (if Z.eqb upper 0 then None else Some (nint upper)) None)]).
          apply (level_step index t' sub _ b0 (go ts (S index) true) bR E (pre ++ cur) (Hst t' eq_refl) Eb0 Hlk).
          * unfold eval_acc, sub, call. cbn [as_index]. unfold as_slice. cbn [String.eqb Ascii.eqb Bool.eqb]. rewrite int_of_cint.
            assert (Hs := py_slice_star _ _ _ _ _ _ Hpos Hle). fold upper in Hs.
            revert Hs. destruct (Z.eqb upper 0); intros Hs; rewrite ?int_of_nint; rewrite Hlk, Hs; reflexivity.
          * intros E' Hlk'.
            apply (IH HFr (S index) true (pre ++ firstn (length cur - length ts) cur) (skipn (length cur - length ts) cur) E' bR);
              [|exact (position_star _ _ _ _ _ _ Hpos Hle)|exact EbR].
            rewrite <- app_assoc, firstn_skipn. exact Hlk'.
        + rewrite bind_items_plain in Hb by exact Hns. destruct cur as [|a cur']; [discriminate|].
          destruct (bind t a) as [b0|] eqn:Eb0; [|discriminate].
          destruct (bind_items (fun t0 v0 => bind t0 v0) ts cur' starred) as [bR|] eqn:EbR; [|discriminate]. injection Hb as <-.
          set (sub := Subscript (Name (tmpname q)) (if starred then nint (Z.of_nat index - Z.of_nat n)%Z else cint (Z.of_nat index))).
          unfold go. rewrite pattern_go_plain by exact Hns.
          apply (level_step index t sub a b0 (go ts (S index) starred) bR E (pre ++ a :: cur') Ht Eb0 Hlk).
          * unfold eval_acc, sub. cbn [as_index]. rewrite int_of_sel, Hlk. exact (py_index_sel _ _ _ _ _ _ _ _ Hpos).
          * intros E' Hlk'. apply (IH HFr (S index) starred (pre ++ [a]) cur' E' bR); [|exact (position_plain _ _ _ _ _ _ _ _ Hpos)|exact EbR].
            rewrite <- app_assoc. exact Hlk'.
    Qed.
  End Level.

  Lemma level_go0 q ts l E bs :
    Forall elem_stores_bind ts -> bind_items (fun t0 v0 => bind t0 v0) ts l false = Some bs ->
    exists stores D,
      pattern_go (fun p0 t0 v0 => assign_auto g p0 t0 v0) (Name (tmpname q)) (Z.of_nat (length ts)) q ts 0 false = inl stores /\
      run ((tmpname q, l) :: E) stores = Some (D ++ (tmpname q, l) :: E, bs) /\ below q D.
  Proof.
    intros HF Hb. apply (level_go q (length ts) ts HF 0 false [] l); [|split; reflexivity|exact Hb].
    cbn [lookup app]. rewrite String.eqb_refl. reflexivity.
  Qed.

  Lemma stores_bind_pattern (tuple_form : bool) ts : Forall elem_stores_bind ts -> stores_bind (if tuple_form then ETuple ts else EList ts).
  Proof.
    intros HF q sub E v bs Hacc Hb. rewrite bind_pattern in Hb. destruct v as [a|l]; [discriminate|].
    destruct (level_go0 q ts l E bs HF Hb) as (stores & D & Hgo & Hrun & HD).
    exists (NamedExpr (tmpname q) (call (Name "tuple") [sub]) :: stores), (D ++ [(tmpname q, l)]).
    split; [|split].
    - rewrite assign_auto_pattern, Hgo. reflexivity.
    - cbn [run]. unfold as_temp, call. cbn [String.eqb Ascii.eqb Bool.eqb]. rewrite Hacc, Hrun, <- app_assoc. reflexivity.
    - apply Forall_app. split; [exact HD|]. constructor; [exists []; reflexivity|constructor].
  Qed.

  Theorem stores_bind_all : forall t, elem_stores_bind t.
  Proof.
    (* only a name or a pattern binds anything, and only Starred is starred *)
    induction t using expr_ind'; split;
      try (intros t' Ht'; discriminate Ht'); try (intros q0 sub0 E0 v0 bs0 Hacc Hb; discriminate Hb).
    - (* Name *) apply stores_bind_name.
    - (* Starred *) intros t' [= <-]. exact (proj1 IHt).
    - (* EList *) exact (stores_bind_pattern false l H).
    - (* ETuple *) exact (stores_bind_pattern true l H).
  Qed.
End Nested.

(* Any nesting of tuple / list patterns, at most one starred target per level (a starred target may itself be a
   pattern), at module level.  The first store materialises the value; the remaining stores, run in order from the
   environment in which that temporary holds the value's items, bind exactly what Python binds, in Python's order. *)
Theorem unpack_nested_correct : forall (A : Type) (g : nsp) (p : path) (ts : list expr) (tuple_form : bool) (value : expr)
    (l : list (val A)) bs,
  n_kind g = NGlobal ->
  let t := if tuple_form then ETuple ts else EList ts in
  bind A t (VSeq A l) = Some bs ->
  exists stores E',
    assign_auto g p t value = inl (NamedExpr (ol "assign" (path_str p)) (call (Name "tuple") [value]) :: stores)
    /\ run A [(ol "assign" (path_str p), l)] stores = Some (E', bs).
Proof.
  intros A g p ts tuple_form value l bs Hg t Hb. subst t. rewrite bind_pattern in Hb.
  assert (HF : Forall (elem_stores_bind A g) ts) by (apply Forall_forall; intros x _; apply stores_bind_all; exact Hg).
  destruct (level_go0 A g p ts l [] bs HF Hb) as (stores & D & Hgo & Hrun & _).
  exists stores, (D ++ [(tmpname p, l)]). split; [|exact Hrun].
  rewrite assign_auto_pattern, Hgo. reflexivity.
Qed.

Lemma bind_items_names_none (A : Type) l rest st : Forall (fun t => exists z, t = Name z) l ->
  (forall tl, bind_items A (fun t0 v0 => bind A t0 v0) rest tl st = None) ->
  forall tl, bind_items A (fun t0 v0 => bind A t0 v0) (l ++ rest) tl st = None.
Proof.
  intros Hl Hrest. induction Hl as [|t l [z ->] _ IH]; intros tl; [apply Hrest|].
  cbn [app bind_items]. destruct tl as [|a tl']; [reflexivity|]. rewrite IH. reflexivity.
Qed.

(* a pattern with two starred targets on one level binds nothing (SyntaxError in Python; the converter refuses it, C13_two_stars_rejected) *)
Lemma bind_two_stars (A : Type) x y pre mid post (l : list (val A)) :
  Forall (fun t => exists z, t = Name z) pre -> Forall (fun t => exists z, t = Name z) mid ->
  length pre <= length l ->
  bind A (ETuple (pre ++ Starred (Name x) :: mid ++ Starred (Name y) :: post)) (VSeq A l) = None.
Proof.
  intros Hpre Hmid _. cbn [bind]. apply (bind_items_names_none A pre _ false Hpre). intros tl.
  cbn [bind_items]. destruct (Nat.leb _ _); [|reflexivity].
  rewrite (bind_items_names_none A mid (Starred (Name y) :: post) true Hmid (fun _ => eq_refl)). destruct (bind A _ _); reflexivity.
Qed.

(* non-vacuity:  (a, (b, *c)), *d, [e] = ...  *)
Example unpack_nested_example :
  let t := ETuple [ETuple [Name "a"; ETuple [Name "b"; Starred (Name "c")]]; Starred (Name "d"); EList [Name "e"]] in
  let v := VSeq nat [VSeq nat [VAtom nat 1; VSeq nat [VAtom nat 2; VAtom nat 3; VAtom nat 4]]; VAtom nat 5; VAtom nat 6; VSeq nat [VAtom nat 7]] in
  bind nat t v = Some [("a", VAtom nat 1); ("b", VAtom nat 2); ("c", VSeq nat [VAtom nat 3; VAtom nat 4]);
                       ("d", VSeq nat [VAtom nat 5; VAtom nat 6]); ("e", VAtom nat 7)].
Proof. vm_compute. reflexivity. Qed.
