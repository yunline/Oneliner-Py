(* The statement layer keeps the core: every expression the converter model emits for a statement whose own expressions are
   in the core of the C03 round trip is again in that core; hence the one expression a whole module is lowered to. *)
From Coq Require Import String List ZArith Bool Arith Lia.
From OL Require Import Sexp PyAst Unparse Namespace Lower Parse ParseProof ParseTie LowerCore.
From OL Require Import StmtOk.
From OLGen Require Import Tables.
Import ListNotations.
Open Scope string_scope.
Open Scope list_scope.

Definition okL (es : list expr) : Prop := Forall okE es.

(* [auto with ok] builds the skeleton of what a statement emits from the facts about its parts that stand in the context *)
#[export] Hint Unfold okL : ok.

Lemma okE_chain_runner : okE chain_runner.
Proof. split; reflexivity. Qed.
Lemma okE_chain_fold rest : forall acc, okE acc -> okL rest -> okE (fold_left (fun c n => call c [n]) rest acc).
Proof.
  induction rest as [|x r IH]; intros acc Ha Hr; [exact Ha|]. apply Forall_cons_iff in Hr as [Hx Hr].
  cbn [fold_left]. apply IH; auto with ok.
Qed.
Lemma okE_wrap cfg es : okL es -> okE (wrap cfg es).
Proof.
  intros H. destruct es as [|x [|y r]]; cbn [wrap]; [apply okE_ellipsis|exact (Forall_inv H)|].
  destruct (cfg_chain cfg); [|auto with ok]. apply Forall_cons_iff in H as [Hx Hr].
  apply okE_chain_fold; [|exact Hr]. pose proof okE_chain_runner. auto with ok.
Qed.
#[export] Hint Resolve okE_wrap : ok.

Lemma tr_ok n e e' : ecore e = true -> tr n e = inl e' -> okE e'.
Proof. intros Hc H. apply okE_ecore. exact (transf_keeps_ecore n e [] false e' Hc H). Qed.

Lemma rmap_ok {X Y} (f : X -> res Y) (p : X -> bool) (Q : Y -> Prop) :
  (forall x y, p x = true -> f x = inl y -> Q y) -> forall l l', forallb p l = true -> rmap f l = inl l' -> Forall Q l'.
Proof.
  intros Hf l l' Hp%forallb_Forall H. exact (proj1 (rmap_spec f _ Q Hf l l' Hp H)).
Qed.

Lemma convert_index_core : forall e, core e = true -> convert_index e = e.
Proof.
  induction e using expr_ind'; intros C; try reflexivity.
  - (* ETuple *) cbn [convert_index]. f_equal. cbn [core] in C.
    induction H as [|x r Hx _ IH]; [reflexivity|]. cbn [forallb] in C. apply andb_prop in C as [Cx Cr].
    cbn [map]. rewrite (Hx Cx), (IH Cr). reflexivity.
  - (* Slice *) discriminate C.
Qed.

Lemma okE_convert_slice a b c : slice_ok a b c = true -> okE (convert_slice a b c).
Proof.
  intros H. apply andb_prop in H as [H Hc]. apply andb_prop in H as [Ha Hb]. apply okO_oecb in Ha, Hb, Hc.
  unfold convert_slice. destruct a, b, c; auto 20 with ok.
Qed.
Lemma okE_convert_item x : item_ok x = true -> okE (convert_index x).
Proof.
  rewrite item_by_kind. destruct (is_slice x) eqn:Es; intros H.
  - destruct x; try discriminate Es. exact (okE_convert_slice _ _ _ H).
  - apply okE_ecore in H. rewrite (convert_index_core x (proj1 H)). exact H.
Qed.
Lemma okE_convert_index s : ecore s = true \/ index_ok s = true -> okE (convert_index s).
Proof.
  intros [H|H]; [exact (okE_convert_item s (ecore_item s H))|].
  apply index_ok_cases in H as [H|(items & -> & H)]; [exact (okE_convert_item s H)|].
  cbn [convert_index]. apply okE_etuple. apply Forall_map. rewrite forallb_forall in H.
  apply Forall_forall. intros x Hx. exact (okE_convert_item x (H x Hx)).
Qed.

Section AssignCore.
  Variable n : nsp.
  Definition A (t : expr) : Prop :=
    forall p v es, target_ok t = true -> okE v -> assign_auto n p t v = inl es -> okL es.
  Definition A' (t : expr) : Prop := A t /\ match t with Starred y => A y | _ => True end.

  Lemma pattern_go_ok tmp len p : forall elts index starred es,
    Forall A' elts ->
    forallb (fun x => match x with Starred y => target_ok y | _ => target_ok x end) elts = true ->
    pattern_go (fun p0 t0 v0 => assign_auto n p0 t0 v0) (Name tmp) len p elts index starred = inl es -> okL es.
  Proof.
    induction elts as [|t r IH]; intros index starred es HA Hc H; cbn [pattern_go] in H.
    - injection H as <-. constructor.
    - apply Forall_cons_iff in HA as [[At At'] Ar]. cbn [forallb] in Hc. apply andb_prop in Hc as [Ct Cr].
      (* either way an element [t0] receives [sub], a part of the temporary, and the rest follows *)
      assert (Hstep : forall t0 sub st, A t0 -> target_ok t0 = true -> okE sub ->
                (let! a := assign_auto n (index :: p) t0 sub in
                 let! b := pattern_go (fun p0 t0 v0 => assign_auto n p0 t0 v0) (Name tmp) len p r (Datatypes.S index) st in ret (a ++ b))
                = inl es -> okL es).
      { intros t0 sub st At0 Ct0 Hs Hb. apply rbind_inl in Hb as (a & Ea & Hb). apply rbind_inl in Hb as (b & Eb & Hb).
        injection Hb as <-. apply okL_app; [exact (At0 _ sub a Ct0 Hs Ea)|exact (IH _ _ _ Ar Cr Eb)]. }
      assert (Hsub : okE (Subscript (Name tmp) (if starred then nint (Z.of_nat index - len) else cint (Z.of_nat index))))
        by auto with ok.
      destruct t; try exact (Hstep _ _ _ At Ct Hsub H).
      (* Starred: list(tmp[index : index - len + 1]) *)
      destruct starred; [discriminate H|]. refine (Hstep _ _ _ At' Ct _ H).
      apply okE_call; [apply okE_name|]. constructor; [|constructor].
      apply okE_subscript_slice; [apply okE_name|apply okE_cnat| |exact I]. destruct (_ =? 0)%Z; [exact I|apply okE_nint].
  Qed.

  Lemma assign_auto_all : forall t, A' t.
  Proof.
    induction t using expr_ind'; (split; [|try exact I]); try (intros ? ? ? Hc0; discriminate Hc0);
      intros p v es Hc Hv Hr; cbn [assign_auto target_ok] in Hr, Hc.
    3,4: (* EList, ETuple *) apply rbind_inl in Hr as (rest & E & Hr); injection Hr as <-; apply (pattern_go_ok _ _ _ l 0 false rest H Hc) in E;
      auto 20 with ok.
    - (* Name *) apply rbind_inl in Hr as (e & E & Hr). injection Hr as <-. apply (okE_get_assign n i v e Hv) in E. auto with ok.
    - (* Starred *) exact (proj1 IHt p v es Hc Hv Hr).
    - (* Attribute *) unfold assign_attribute in Hr. apply rbind_inl in Hr as (e & Hr & Hes). injection Hes as <-.
      apply rbind_inl in Hr as (v' & E & Hr). injection Hr as <-. apply (tr_ok n t v' Hc) in E. auto 20 with ok.
    - (* Subscript *) unfold assign_subscript in Hr. apply andb_prop in Hc as [C1 C2].
      apply rbind_inl in Hr as (e & Hr & Hes). injection Hes as <-.
      apply rbind_inl in Hr as (v' & E1 & Hr). apply rbind_inl in Hr as (s1 & E2 & Hr). injection Hr as <-.
      apply (tr_ok n t1 v' C1) in E1. apply (transf_keeps_index n t2 [] false s1 C2), okE_convert_index in E2. auto 20 with ok.
  Qed.

  Theorem assign_auto_ok : forall t p v es, target_ok t = true -> okE v -> assign_auto n p t v = inl es -> okL es.
  Proof. intros t. exact (proj1 (assign_auto_all t)). Qed.
End AssignCore.

Lemma okE_aug_expr target op value fb : okE target -> okE value -> okE fb -> okE (aug_expr target op value fb).
Proof. intros Ht Hv Hf. unfold aug_expr. auto 20 with ok. Qed.
#[export] Hint Resolve okE_aug_expr : ok.

Lemma lower_augassign_ok n p target op value es :
  aug_target_ok target = true -> ecore value = true -> lower_augassign n p target op value = inl es -> okL es.
Proof.
  intros Ht Hv H. unfold lower_augassign in H. apply rbind_inl in H as (v & Ev & H). apply (tr_ok n value v Hv) in Ev.
  destruct target; try discriminate Ht; cbn [aug_target_ok] in Ht.
  - (* Name *) apply rbind_inl in H as (t & Et & H). apply rbind_inl in H as (fb & Ef & H). apply rbind_inl in H as (st & Es & H).
    injection H as <-. apply okE_get_load_name in Et.
    apply okE_get_assign in Ef; [|auto with ok]. apply okE_get_assign in Es; [|auto 20 with ok]. auto 20 with ok.
  - (* Attribute *) apply rbind_inl in H as (par' & Ep & H). injection H as <-. apply (tr_ok n target par' Ht) in Ep. auto 20 with ok.
  - (* Subscript *) apply andb_prop in Ht as [C1 C2].
    apply rbind_inl in H as (par' & Ep & H). apply rbind_inl in H as (s' & Es & H). injection H as <-.
    apply (tr_ok n target1 par' C1) in Ep.
    apply (tr_ok n _ s' (proj1 (okE_ecore _) (okE_convert_index _ (or_intror C2)))) in Es. auto 20 with ok.
Qed.

Lemma lower_import_ok n names es : lower_import n names = inl es -> okL es.
Proof.
  unfold lower_import. apply (rmap_ok _ (fun _ => true)); [|apply forallb_forall; reflexivity].
  intros [nm [a|]] e _ E; cbn [fst snd] in E; [|destruct (has_dot nm)]; (eapply okE_get_assign; [|exact E]); auto 20 with ok.
Qed.

Lemma lower_importfrom_ok n p m names lv es : (0 <= lv)%Z -> lower_importfrom n p m names lv = inl es -> okL es.
Proof.
  intros Hlv%okE_cint H. unfold lower_importfrom in H. apply rbind_inl in H as (binds & E & H). injection H as <-.
  assert (Hnames : okL (map (fun al : ident * option ident => cstr (fst al)) names)).
  { apply Forall_map. apply Forall_forall. intros al _. apply okE_cstr. }
  assert (Hbinds : okL binds).
  { refine (rmap_ok _ (fun _ => true) okE _ names binds _ E); [|apply forallb_forall; reflexivity].
    intros al e _ E1. cbv beta zeta in E1. match type of E1 with (if ?c then _ else _) = _ => destruct c end; [discriminate E1|].
    eapply okE_get_assign; [|exact E1]. auto with ok. }
  auto 20 with ok.
Qed.

Lemma okE_guarded cfg flag rest : okL rest -> okE (guarded cfg flag rest).
Proof. intros H. unfold guarded. auto with ok. Qed.
Lemma okE_while_comp var body test : okE body -> okE test -> okE (while_comp var body test).
Proof. intros Hb Ht. unfold while_comp. auto 20 with ok. Qed.
(* the condition of a while loop: Lower.lower_stmt, SWhile *)
Lemma okE_truth (test e : expr) : okE e -> okE (match test with BoolOp _ _ => IfExp e ctrue cfalse | _ => e end).
Proof. intros H. destruct test; auto with ok. Qed.
Lemma okE_set_break l : okE (set_break l).
Proof. unfold set_break. destruct (lp_kind l); auto 20 with ok. Qed.
Lemma okL_intr_flags ls :
  Forall okE (flat_map (fun l => if lp_intr_used l then [NamedExpr (intr_name (lp_path l)) ctrue] else []) ls).
Proof. apply Forall_flat_map. apply Forall_forall. intros l _. auto with ok. Qed.
Lemma okE_hook_wrap p m name decs decorated : okE decorated -> okE (hook_wrap p m name decs decorated).
Proof.
  intros H. unfold hook_wrap. pose proof (okE_cint 0 (Z.le_refl 0)).
  destruct (m && is_class_hook name); [|exact H]. destruct decs; auto 20 with ok.
Qed.
(* the dictionary of the parameters a nested function rebinds *)
Lemma okE_names_dict ps : okE (EDict (map (fun x => Some (cstr x)) ps) (map Name ps)).
Proof.
  apply okE_edict; [rewrite !map_length; reflexivity| |]; apply Forall_map, Forall_forall; intros x _; [apply okE_cstr|apply okE_name].
Qed.
Lemma okE_import_lib lib : okE (import_lib lib).
Proof. unfold import_lib. auto 20 with ok. Qed.
Lemma okE_preset : okE preset_iter_wrapper.
Proof. split; vm_compute; reflexivity. Qed.
#[export] Hint Resolve okE_guarded okE_while_comp okE_set_break okL_intr_flags okE_names_dict okE_import_lib okE_preset : ok.

Lemma okE_class_create p name bases' kws' : Forall (fun b => core b = true) bases' -> okL (map snd kws') ->
  okE (class_create p name bases' kws').
Proof.
  intros Hbs%forallb_Forall Hks. unfold class_create.
  assert (Hb : okE (ETuple bases')) by (split; [exact Hbs|reflexivity]).
  destruct (existsb is_meta_kw kws'); (apply okE_callk; [|auto with ok|exact Hks]); [|apply okE_name].
  apply okE_lambda_plain. apply okE_callk; [auto 20 with ok|auto with ok|]. cbn [map snd]. auto with ok.
Qed.

Lemma deco_fold_ok n : forall ds acc e, forallb ecore ds = true -> okE acc ->
  (fix go (ds : list expr) (acc : expr) : res expr :=
     match ds with [] => ret acc | d :: r => let! d' := tr n d in go r (call d' [acc]) end) ds acc = inl e -> okE e.
Proof.
  induction ds as [|d r IH]; intros acc e Hc Ha H.
  - injection H as <-. exact Ha.
  - cbn [forallb] in Hc. apply andb_prop in Hc as [Cd Cr]. apply rbind_inl in H as (d' & Ed & H).
    apply (tr_ok n d d' Cd) in Ed. apply (IH _ _ Cr) in H; auto with ok.
Qed.

Lemma forallb_rev {X} (f : X -> bool) l : forallb f l = true -> forallb f (rev l) = true.
Proof. intros H. rewrite forallb_forall in *. intros x Hx. apply H. apply in_rev. exact Hx. Qed.

Section StmtCore.
  Variable cfg : config.
  Definition S (s : stmt) : Prop := forall c p es, stmt_ok s = true -> lower_stmt cfg c p s = inl es -> okL es.

  Lemma block_ok : forall b c p br i es, Forall S b -> forallb stmt_ok b = true ->
    lower_block cfg (fun c0 p0 s0 => lower_stmt cfg c0 p0 s0) c p br i b = inl es -> okL es.
  Proof.
    induction b as [|s rest IH]; intros c p br i es HS Hc H.
    - injection H as <-. constructor.
    - apply Forall_cons_iff in HS as [Hs Hr]. cbn [forallb] in Hc. apply andb_prop in Hc as [Cs Cr].
      apply lower_block_cons in H as (e1 & E1 & H). apply (Hs c _ e1 Cs) in E1.
      destruct (is_interrupt s); [rewrite H; exact E1|].
      destruct rest as [|s2 rest']; [rewrite H; exact E1|].
      destruct H as (rs & E2 & ->). apply (IH c p br (Datatypes.S i) rs Hr Cr) in E2.
      destruct (guard_of c) as [bumps [flag|]]; [destruct (bumps s)|]; auto with ok.
  Qed.

  Lemma okE_if_result isb t b o : okE t -> okL b -> okL o -> okE (if_result cfg isb t b o).
  Proof.
    intros Ht Hb Ho. unfold if_result. destruct (cfg_short cfg); [|auto with ok].
    destruct o as [|o1 orest]; [auto 20 with ok|]. cbv zeta. apply (okE_wrap cfg) in Ho.
    set (semi := BoolOp And _). assert (Hsemi : okE semi) by (unfold semi; auto 20 with ok). clearbody semi.
    destruct (wrap cfg (o1 :: orest)); try exact (okE_boolop2 Or _ _ Hsemi Ho). destruct op; [exact (okE_boolop2 Or _ _ Hsemi Ho)|].
    (* a long elif chain stays flat *)
    destruct Ho as [C _]. cbn [core] in C. apply andb_prop in C as [HL%Nat.leb_le Hvs%okL_ecore].
    apply okE_boolop; [exact (le_S _ _ HL)|auto with ok].
  Qed.
End StmtCore.

Section StmtCases.
  Variable cfg : config.

  Lemma S_expr e : S cfg (SExpr e).
  Proof.
    intros c p es Hc H. cbn [stmt_ok lower_stmt] in *. apply rbind_inl in H as (e' & E & H). injection H as <-.
    apply (tr_ok _ e e' Hc) in E. auto with ok.
  Qed.

  Lemma S_if t b o : Forall (S cfg) b -> Forall (S cfg) o -> S cfg (SIf t b o).
  Proof.
    intros Hb Ho c p es Hc H. cbn [stmt_ok] in Hc. apply andb_prop in Hc as [Hc Co]. apply andb_prop in Hc as [Ct Cb].
    cbn [lower_stmt] in H. apply rbind_inl in H as (b' & Eb & H). apply rbind_inl in H as (o' & Eo & H).
    apply rbind_inl in H as (t' & Et & H). injection H as <-.
    apply (block_ok cfg b _ _ _ _ _ Hb Cb) in Eb. apply (block_ok cfg o _ _ _ _ _ Ho Co) in Eo. apply (tr_ok _ t t' Ct) in Et.
    pose proof (okE_if_result cfg) as Hr. auto with ok.
  Qed.

  Lemma S_while t b o : Forall (S cfg) b -> Forall (S cfg) o -> S cfg (SWhile t b o).
  Proof.
    intros Hb Ho c p es Hc H. cbn [stmt_ok] in Hc. apply andb_prop in Hc as [Hc Co]. apply andb_prop in Hc as [Ct Cb].
    cbn [lower_stmt] in H. cbv zeta in H. apply rbind_inl in H as (b' & Eb & H). apply rbind_inl in H as (o' & Eo & H).
    apply rbind_inl in H as (t' & Et & H). injection H as <-.
    apply (block_ok cfg b _ _ _ _ _ Hb Cb) in Eb. apply (block_ok cfg o _ _ _ _ _ Ho Co) in Eo.
    apply (tr_ok _ t t' Ct), (okE_truth t) in Et. auto 20 with ok.
  Qed.

  Lemma S_for tg it b o : Forall (S cfg) b -> Forall (S cfg) o -> S cfg (SFor tg it b o).
  Proof.
    intros Hb Ho c p es Hc H. cbn [stmt_ok] in Hc. apply andb_prop in Hc as [Hc Co]. apply andb_prop in Hc as [Hc Cb].
    apply andb_prop in Hc as [Ctg Cit].
    cbn [lower_stmt] in H. cbv zeta in H. apply rbind_inl in H as (b' & Eb & H). apply rbind_inl in H as (o' & Eo & H).
    apply rbind_inl in H as (bind & Ebind & H). apply rbind_inl in H as (it' & Eit & H).
    apply (block_ok cfg b _ _ _ _ _ Hb Cb) in Eb. apply (block_ok cfg o _ _ _ _ _ Ho Co) in Eo.
    apply (assign_auto_ok _ tg _ _ _ Ctg (okE_name _)) in Ebind. apply (tr_ok _ it it' Cit) in Eit.
    match type of H with (if ?x then _ else _) = _ => destruct x end; injection H as <-; auto 20 with ok.
  Qed.

  Lemma S_jump s : s = SBreak \/ s = SContinue -> S cfg s.
  Proof.
    intros [-> | ->] c p es _ H; cbn [lower_stmt] in H; (destruct (c_loops c) as [|l ls]; [discriminate|]); injection H as <-; auto 20 with ok.
  Qed.

  Lemma S_assign ts v : S cfg (SAssign ts v).
  Proof.
    intros c p es Hc H. cbn [stmt_ok] in Hc. apply andb_prop in Hc as [Ct Cv].
    cbn [lower_stmt] in H. apply rbind_inl in H as (v0 & Ev & H). apply (tr_ok _ v v0 Cv) in Ev.
    set (val := if shared_value ts then Name (ol "assign" (path_str p)) else v0) in *.
    assert (Hval : okE val) by (unfold val; auto with ok). clearbody val.
    apply rbind_inl in H as (stores & Es & H). injection H as <-. apply okL_app; [auto with ok|].
    revert stores Es. generalize 0 as k. induction ts as [|t r IH]; intros k stores Es.
    - injection Es as <-. constructor.
    - cbn [forallb] in Ct. apply andb_prop in Ct as [C1 Cr].
      apply rbind_inl in Es as (a & Ea & Es). apply rbind_inl in Es as (b & Eb & Es). injection Es as <-.
      apply okL_app; [exact (assign_auto_ok _ t _ _ _ C1 Hval Ea)|exact (IH Cr _ _ Eb)].
  Qed.

  Lemma S_annassign t v : S cfg (SAnnAssign t v).
  Proof.
    intros c p es Hc H. cbn [stmt_ok] in Hc. apply andb_prop in Hc as [Ct Cv].
    destruct v as [v|]; cbn [lower_stmt] in H; [|injection H as <-; constructor].
    apply rbind_inl in H as (v0 & Ev & H). apply (tr_ok _ v v0 Cv) in Ev.
    apply rbind_inl in H as (stores & Es & H). injection H as <-.
    apply (assign_auto_ok _ t _ _ _ Ct) in Es; auto 20 with ok.
  Qed.

  Lemma S_return v : S cfg (SReturn v).
  Proof.
    intros c p es Hc H. cbn [stmt_ok lower_stmt] in *. destruct (n_kind (c_nsp c)); try discriminate H.
    apply rbind_inl in H as (ve & Eve & H). injection H as <-.
    assert (Hve : okL ve).
    { destruct v as [x|]; [|injection Eve as <-; constructor].
      apply rbind_inl in Eve as (x' & Ex & Eve). injection Eve as <-. apply (tr_ok _ x x' Hc) in Ex. auto with ok. }
    assert (Hbrk : okL (map set_break (rev (c_loops c)))) by (apply Forall_map, Forall_forall; intros l _; apply okE_set_break).
    auto 20 with ok.
  Qed.

  Lemma S_functiondef name ln a b decs : Forall (S cfg) b -> S cfg (SFunctionDef name ln a b decs).
  Proof.
    intros Hb c p es Hc H. cbn [stmt_ok] in Hc. apply andb_prop in Hc as [Hc Cb]. apply andb_prop in Hc as [Ca Cd].
    unfold args_ok in Ca. apply andb_prop in Ca as [Ca C4]. apply andb_prop in Ca as [Ca C3]. apply andb_prop in Ca as [C1 C2].
    cbn [lower_stmt] in H. destruct (find_inner (c_nsp c) name ln) as [fn|]; [|discriminate].
    destruct (n_kind fn); try discriminate H. cbv zeta in H.
    apply rbind_inl in H as (de & Ede & H). apply rbind_inl in H as (kd & Ekd & H). apply rbind_inl in H as (b' & Eb & H).
    apply rbind_inl in H as (lam & Elam & H). apply rbind_inl in H as (e & Ee & H). injection H as <-.
    apply (block_ok cfg b _ _ _ _ _ Hb Cb) in Eb. refine (Forall_cons _ (okE_get_assign _ _ _ _ _ Ee) (Forall_nil _)).
    apply okE_hook_wrap. refine (deco_fold_ok _ _ _ _ (forallb_rev _ _ Cd) _ Elam).
    apply okE_lambda.
    - auto 20 with ok.
    - rewrite (rmap_length _ _ _ Ede). apply Nat.leb_le. exact C3.
    - rewrite (rmap_length _ _ _ Ekd). apply Nat.eqb_eq. exact C4.
    - exact (rmap_ok _ ecore okE (tr_ok _) _ _ C1 Ede).
    - refine (rmap_ok _ oecb okO _ _ _ C2 Ekd). intros o o' Co Eo. apply okO_oecb. exact (transf_keeps_oecb _ o [] false o' Co Eo).
  Qed.

  Lemma okL_filter_snd (f : option ident * expr -> bool) kws : okL (map snd kws) -> okL (map snd (filter f kws)).
  Proof.
    induction kws as [|kw r IH]; intros H; [constructor|]. cbn [map] in H. apply Forall_cons_iff in H as [Hkw Hr].
    cbn [filter]. destruct (f kw); [constructor; [exact Hkw|]|]; exact (IH Hr).
  Qed.

  Lemma S_classdef name ln bases kws b decs : Forall (S cfg) b -> S cfg (SClassDef name ln bases kws b decs).
  Proof.
    intros Hb c p es Hc H. cbn [stmt_ok] in Hc. apply andb_prop in Hc as [Hc Cb]. apply andb_prop in Hc as [Hc Cd].
    apply andb_prop in Hc as [Cbs Ck].
    cbn [lower_stmt] in H. destruct (find_inner (c_nsp c) name ln) as [cn|]; [|discriminate].
    destruct (n_kind cn); try discriminate H. cbv zeta in H.
    apply rbind_inl in H as (b' & Eb & H). apply rbind_inl in H as (bases' & Ebs & H). apply rbind_inl in H as (kws' & Ek & H).
    apply rbind_inl in H as (create & Ec & H). apply rbind_inl in H as (load1 & El & H). apply rbind_inl in H as (decorated & Ed & H).
    injection H as <-.
    apply (block_ok cfg b _ _ _ _ _ Hb Cb) in Eb. apply okE_get_load_name in El.
    assert (Hbs : Forall (fun b => core b = true) bases').
    { refine (rmap_ok _ core _ _ _ _ Cbs Ebs). intros x y Cx Ex. exact (proj1 (transf_keeps_core _ x [] false y Cx Ex)). }
    assert (Hks : okL (map snd kws')).
    { apply Forall_map. refine (rmap_ok _ (fun kw => ecore (snd kw)) (fun kw' => okE (snd kw')) _ _ _ Ck Ek).
      intros kw kw' Cv E. apply rbind_inl in E as (v & Ev & E). injection E as <-. exact (tr_ok _ _ v Cv Ev). }
    apply (okE_get_assign _ _ _ _ (okE_class_create p name bases' kws' Hbs Hks)) in Ec.
    assert (Hdeco : okL decorated).
    { refine (rmap_ok _ ecore okE _ _ _ (forallb_rev _ _ Cd) Ed). intros d e Cd0 E. apply rbind_inl in E as (d' & Ed' & E).
      apply (tr_ok _ d d' Cd0) in Ed'. eapply okE_get_assign; [|exact E]. auto with ok. }
      auto 20 with ok.
  Qed.

  Theorem lower_stmt_ok : forall s, S cfg s.
  Proof.
    induction s using stmt_ind'.
    - (* SExpr *) apply S_expr.
    - (* SIf *) apply S_if; assumption.
    - (* SWhile *) apply S_while; assumption.
    - (* SFor *) apply S_for; assumption.
    - (* SBreak *) apply S_jump. left. reflexivity.
    - (* SContinue *) apply S_jump. right. reflexivity.
    - (* SPass *) intros c p es _ H. injection H as <-. auto with ok.
    - (* SAssign *) apply S_assign.
    - (* SAnnAssign *) apply S_annassign.
    - (* SAugAssign *) intros c p es [Ct Cv]%andb_prop H. exact (lower_augassign_ok _ _ _ _ _ _ Ct Cv H).
    - (* SFunctionDef *) apply S_functiondef; assumption.
    - (* SReturn *) apply S_return.
    - (* SGlobal *) intros c p es _ H. injection H as <-. constructor.
    - (* SNonlocal *) intros c p es _ H. injection H as <-. constructor.
    - (* SClassDef *) apply S_classdef; assumption.
    - (* SImport *) intros c p es _ H. exact (lower_import_ok _ _ _ H).
    - (* SImportFrom *) intros c p es Hc%Z.leb_le H. exact (lower_importfrom_ok _ _ _ _ _ _ Hc H).
    - (* SUnsupported *) intros c p es _ H. discriminate H.
  Qed.

  Theorem lower_module_ok : forall root body e,
    forallb stmt_ok body = true -> lower_module cfg root body = inl e -> okE e.
  Proof.
    intros root body e Hc H. apply lower_module_shape in H as (g & stmts & _ & Es & ->).
    apply (block_ok cfg body _ _ _ _ _ (proj2 (Forall_forall _ _) (fun s _ => lower_stmt_ok s)) Hc) in Es.
    unfold prelude. auto 20 with ok.
  Qed.

  Corollary lower_module_core_top : forall root body e,
    forallb stmt_ok body = true -> lower_module cfg root body = inl e -> core_top e = true.
  Proof.
    intros root body e Hc H. destruct (lower_module_ok root body e Hc H) as [C N]. unfold core_top. rewrite C, N. reflexivity.
  Qed.
End StmtCases.


(* C02 / C03 for WHOLE PROGRAMS of the modelled fragment: whatever program (any statements, any nesting, any size) the converter
   model accepts, if the program's own expressions lie in the core, then the tokens of the text the unparser model prints for
   the ONE output expression are read back by the expression parser as exactly that expression, nothing left over. *)
Theorem module_output_is_one_expression : forall cfg root body e,
  forallb stmt_ok body = true -> lower_module cfg root body = inl e ->
  exists f0, forall f, f0 <= f -> pc f (MExpr slot_top) (norm (unparse_toks e)) = Some (e, []).
Proof.
  intros cfg root body e Hc H. apply roundtrip_unparser_core_top. exact (lower_module_core_top cfg root body e Hc H).
Qed.
