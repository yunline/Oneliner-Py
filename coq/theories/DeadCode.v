(* C08: what the refusal of unsupported statements does not reach (known finding K-dead-code-unchecked). *)
From Coq Require Import String List ZArith Bool.
From OL Require Import PyAst Namespace Lower KSem KSim Depth Reject.
Import ListNotations.
Local Open Scope string_scope.

Definition dead_code_prog : list stmt := [SWhile (probe "c" 0) [SBreak; SUnsupported "Try"] []].

(* the statements after a direct break / continue / return of a block are not dispatched: the FULL statement "a program that
   contains an unsupported statement anywhere is refused" is false of the faithful model *)
Lemma dead_code_unchecked :
  (exists e, lower_module cfg_list top_symtab dead_code_prog = inl e) /\
  existsb reaches_unsupported dead_code_prog = false.
Proof. split; [eexists; vm_compute; reflexivity | vm_compute; reflexivity]. Qed.
