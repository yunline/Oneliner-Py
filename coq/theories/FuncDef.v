(* C11: function definitions.  The lambda emitted for `def` carries the source's parameter lists unchanged
   (annotations are not part of the model: they are erased), the defaults are the rewritten source defaults in the
   same order, and decorators are applied bottom-up (nearest to the def first). *)
From Coq Require Import String List ZArith Bool Arith.
From OL Require Import Sexp PyAst Namespace Lower.
Import ListNotations.
Open Scope string_scope.
Open Scope list_scope.

(* d_k( ... d_2( d_1( f ) ) ) for the list [d_1; ...; d_k] *)
Definition decorate (ds : list expr) (f : expr) : expr := fold_left (fun acc d => call d [acc]) ds f.

(* the local loop in the def case of [lower_stmt], quoted from there: it is [decorate] over the translated decorators *)
Lemma deco_go n : forall ds acc r,
  (fix go (ds : list expr) (acc : expr) : res expr :=
     match ds with
     | [] => ret acc
     | d :: r => let! d' := tr n d in go r (call d' [acc])
     end) ds acc = inl r ->
  exists ds', rmap (tr n) ds = inl ds' /\ r = decorate ds' acc.
Proof.
  induction ds as [|d ds IH]; intros acc r H.
  - injection H as <-. exists []. split; reflexivity.
  - apply rbind_inl in H as (d' & E & H).
    destruct (IH _ _ H) as [ds' [A ->]]. exists (d' :: ds'). split; [|reflexivity].
    cbn [rmap]. rewrite E, A. reflexivity.
Qed.

Theorem funcdef_shape : forall cfg c p name ln args body decs es,
  lower_stmt cfg c p (SFunctionDef name ln args body decs) = inl es ->
  exists fn defaults' kwdefaults' decs' lbody e,
    find_inner (c_nsp c) name ln = Some fn /\
    rmap (tr (c_nsp c)) (a_defaults args) = inl defaults' /\
    rmap (fun d => match d with Some x => let! y := tr (c_nsp c) x in ret (Some y) | None => ret None end) (a_kw_defaults args) = inl kwdefaults' /\
    rmap (tr (c_nsp c)) (rev decs) = inl decs' /\
    let lam := Lambda (a_posonly args) (a_args args) (a_vararg args) (a_kwonly args) kwdefaults' (a_kwarg args) defaults' lbody in
    let decorated := decorate decs' lam in
    let final := hook_wrap p (n_is_method fn) name decs decorated in
    get_assign (c_nsp c) name final = inl e /\ es = [e].
Proof.
  intros cfg c p name ln args body decs es H. cbn [lower_stmt] in H.
  destruct (find_inner (c_nsp c) name ln) as [fn|] eqn:Ef; [|discriminate].
  destruct (n_kind fn); try discriminate.
  apply rbind_inl in H as (ds & Ed & H). apply rbind_inl in H as (kds & Ek & H). apply rbind_inl in H as (b' & Eb & H).
  apply rbind_inl in H as (dec & Eg & H). destruct (deco_go _ _ _ _ Eg) as [decs' [Hd ->]].
  apply rbind_inl in H as (e & Ee & H). injection H as <-.
  eexists fn, ds, kds, decs', _, e. split; [reflexivity|]. split; [exact Ed|]. split; [exact Ek|]. split; [exact Hd|].
  cbn zeta. split; [exact Ee|reflexivity].
Qed.

Corollary funcdef_params_copied : forall cfg c p name ln args body es,
  a_defaults args = [] -> a_kw_defaults args = map (fun _ => None) (a_kwonly args) ->
  lower_stmt cfg c p (SFunctionDef name ln args body []) = inl es ->
  exists fn lbody e,
    find_inner (c_nsp c) name ln = Some fn /\
    get_assign (c_nsp c) name
      (let lam := Lambda (a_posonly args) (a_args args) (a_vararg args) (a_kwonly args) (map (fun _ => None) (a_kwonly args)) (a_kwarg args) [] lbody in
       hook_wrap p (n_is_method fn) name [] lam) = inl e /\ es = [e].
Proof.
  intros cfg c p name ln args body es Hd Hk H.
  destruct (funcdef_shape _ _ _ _ _ _ _ _ _ H) as [fn [ds [kds [decs' [lbody [e [A [B [C [D E]]]]]]]]]].
  rewrite Hd in B. cbn in B. injection B as <-.
  rewrite Hk in C.
  assert (kds = map (fun _ => None) (a_kwonly args)).
  { rewrite rmap_id in C; [injection C as <-; reflexivity|].
    apply Forall_forall. intros d Hi. apply in_map_iff in Hi. destruct Hi as [? [<- _]]. reflexivity. }
  subst kds. cbn in D. injection D as <-. cbn zeta in E. cbn [decorate fold_left] in E.
  exists fn, lbody, e. split; [exact A|exact E].
Qed.
