(* C03: the parser of Parse.v inverts the printer of Parse.v on the whole core, for trees of any depth. *)
From Coq Require Import String Ascii List ZArith NArith Bool Arith Lia.
From OL Require Import PyAst Unparse.
From OL Require Import Parse.
From OLGen Require Import Tables.
Import ListNotations.
Local Open Scope string_scope.
Local Open Scope list_scope.

Definition ev (P : nat -> Prop) : Prop := exists f0, forall f, f0 <= f -> P f.

(* [Ev m ts r] is convertible to [ev (fun f => pc f m ts = Some r)]; the lemmas on [ev] and [Ev_step], [Ev_now] below are
   the only places where a fuel is chosen *)
Definition Ev (m : mode) (ts : list pt) (r : expr * list pt) : Prop :=
  exists f0, forall f, f0 <= f -> pc f m ts = Some r.

Lemma ev_all {P : nat -> Prop} : (forall f, P f) -> ev P.
Proof. intros H. exists 0. intros f _. apply H. Qed.

Lemma ev_mono {P Q : nat -> Prop} : ev P -> (forall f, P f -> Q f) -> ev Q.
Proof. intros [f0 H] K. exists f0. intros f Hf. apply K. apply H. exact Hf. Qed.

Lemma ev_and {P Q} : ev P -> ev Q -> ev (fun f => P f /\ Q f).
Proof. intros [f1 H1] [f2 H2]. exists (Nat.max f1 f2). intros f Hf. split; [apply H1|apply H2]; lia. Qed.

(* One step of the parser: the body of [pc] with [E] for its recursive calls, read off the definition by unfolding [pc]
   at the successor of a fuel [g] and abstracting [pc g]; nothing else in it mentions [g]. *)
Section Pstep.
  Variable g : nat.
  Definition pstep (E : mode -> list pt -> option (expr * list pt)) (m : mode) (ts : list pt) : option (expr * list pt) :=
    ltac:(let body := eval cbn [pc] in (pc (S g) m ts) in
          match eval pattern (pc g) in body with ?F _ => let t := eval cbv beta in (F E) in exact t end).
End Pstep.

(* Unfolding [pc (S f)] in a goal leaves its recursive calls as the bare fixpoint applied to [f], which the kernel then
   compares with [pc f], body against body, once for each call.  Stated against the fixpoint written over [pstep], the two
   bodies are compared once, here, and the step lemmas unfold [pstep] only. *)
Lemma pc_fix : pc = fix r f m ts := match f with O => None | S f' => pstep (r f') m ts end.
Proof. reflexivity. Qed.

Lemma pc_S f m ts : pc (S f) m ts = pstep (pc f) m ts.
Proof. rewrite pc_fix. reflexivity. Qed.

Lemma Ev_step {m ts res P} : ev P -> (forall f, P f -> pstep (pc f) m ts = Some res) -> Ev m ts res.
Proof. intros [f0 H] K. exists (S f0). intros [|f] Hf; [lia|]. rewrite pc_S. apply K. apply H. lia. Qed.

Lemma Ev_now m ts res : (forall f, pstep (pc f) m ts = Some res) -> Ev m ts res.
Proof. intros K. exists 1. intros [|f] Hf; [lia|]. rewrite pc_S. apply K. Qed.

(* [pc_step] unfolds the step of the parser and decides the tests between literal keys; where the tokens are variables,
   [cbv [pstep]] alone exposes the step.  Neither unfolds [classify] or [classify_prefix]: the class of the head token is
   put in by [change] when the key is a literal, so that the goal names it, and by an equation (prefix_unop, classify_binop,
   classify_boolop, classify_cmp) when the key depends on the operator. *)
Ltac pc_step := cbn [pstep hd_is is_key tl String.eqb Ascii.eqb Bool.eqb andb].

Lemma Ev_expr_atom n ts a r res :
  classify_prefix ts = PAtom -> Ev MAtom ts (a, r) -> Ev (MLoop n a CNone) r res -> Ev (MExpr n) ts res.
Proof. intros Hc H1 H2. apply (Ev_step (ev_and H1 H2)). intros f [E1 E2]. pc_step. rewrite Hc, E1. exact E2. Qed.

Lemma prefix_unop o r : classify_prefix (PK (unop_key o) :: r) = PUn o r.
Proof. destruct o; reflexivity. Qed.

Lemma Ev_expr_un n o r v r' res :
  unop_prec o <= n -> Ev (MExpr (slot_UnaryOp o)) r (v, r') -> Ev (MLoop n (UnaryOp o v) CNone) r' res ->
  Ev (MExpr n) (PK (unop_key o) :: r) res.
Proof.
  intros Hp H1 H2. apply (Ev_step (ev_and H1 H2)). intros f [E1 E2]. apply Nat.leb_le in Hp.
  cbv [pstep]. rewrite prefix_unop, Hp, E1. exact E2.
Qed.

Lemma Ev_expr_lam n r res :
  node_prec_Lambda <= n -> Ev (MParams n pst0) r res -> Ev (MExpr n) (PK "lambda" :: r) res.
Proof.
  intros Hp H1. apply (Ev_step H1). intros f E1. apply Nat.leb_le in Hp.
  cbv [pstep]. change (classify_prefix (PK "lambda" :: r)) with (PLam r). cbv iota. rewrite Hp. exact E1.
Qed.

Lemma Ev_expr_wal n t r v r' res :
  node_prec_NamedExpr <= n -> Ev (MExpr slot_NamedExpr_value) r (v, r') -> Ev (MLoop n (NamedExpr t v) CNone) r' res ->
  Ev (MExpr n) (PN t :: PK ":=" :: r) res.
Proof.
  intros Hp H1 H2. apply (Ev_step (ev_and H1 H2)). intros f [E1 E2]. apply Nat.leb_le in Hp.
  cbv [pstep]. change (classify_prefix (PN t :: PK ":=" :: r)) with (PWal t r). cbv iota. rewrite Hp, E1. exact E2.
Qed.

(* does the loop go on at level n? *)
Definition continues (n : nat) (ts : list pt) : bool :=
  match classify ts with
  | KDot _ _ | KLPar _ | KLBr _ => true
  | KIf _ => Nat.leb node_prec_IfExp n
  | KBool o _ => Nat.leb (boolop_prec o) n
  | KCmp _ _ => Nat.leb node_prec_Compare n
  | KBin o _ => Nat.leb (binop_prec o) n
  | KOther => false
  end.

Lemma Ev_loop_stop n l ch ts : continues n ts = false -> Ev (MLoop n l ch) ts (l, ts).
Proof.
  intros H. apply Ev_now. intros f. cbv [pstep]. unfold continues in H.
  destruct (classify ts); try discriminate; try rewrite H; reflexivity.
Qed.

Lemma Ev_loop_dot n l ch a r res : Ev (MLoop n (Attribute l a) CNone) r res -> Ev (MLoop n l ch) (PK "." :: PN a :: r) res.
Proof. intros H1. apply (Ev_step H1). intros f E1. exact E1. Qed.

Lemma Ev_loop_call n l ch r fn args kws r' res :
  Ev (MArgs [] []) r (Call fn args kws, r') -> Ev (MLoop n (Call l args kws) CNone) r' res -> Ev (MLoop n l ch) (PK "(" :: r) res.
Proof.
  intros H1 H2. apply (Ev_step (ev_and H1 H2)). intros f [E1 E2].
  cbv [pstep]. change (classify (PK "(" :: r)) with (KLPar r). cbv iota. rewrite E1. exact E2.
Qed.

Lemma Ev_loop_sub n l ch r s r' res :
  Ev (MItems []) r (s, PK "]" :: r') -> Ev (MLoop n (Subscript l s) CNone) r' res -> Ev (MLoop n l ch) (PK "[" :: r) res.
Proof.
  intros H1 H2. apply (Ev_step (ev_and H1 H2)). intros f [E1 E2].
  cbv [pstep]. change (classify (PK "[" :: r)) with (KLBr r). cbv iota. rewrite E1. pc_step. exact E2.
Qed.

Lemma Ev_loop_if n l ch r t r' o r'' res :
  node_prec_IfExp <= n ->
  Ev (MExpr slot_IfExp_test) r (t, PK "else" :: r') -> Ev (MExpr slot_IfExp_orelse) r' (o, r'') ->
  Ev (MLoop n (IfExp t l o) CNone) r'' res -> Ev (MLoop n l ch) (PK "if" :: r) res.
Proof.
  intros Hp H1 H2 H3. apply (Ev_step (ev_and H1 (ev_and H2 H3))). intros f (E1 & E2 & E3). apply Nat.leb_le in Hp.
  cbv [pstep]. change (classify (PK "if" :: r)) with (KIf r). cbv iota. rewrite Hp, E1. pc_step. rewrite E2. exact E3.
Qed.

Lemma classify_binop o r : classify (PK (binop_text o) :: r) = KBin o r.
Proof. destruct o; reflexivity. Qed.

Lemma classify_boolop o r : classify (PK (bool_key o) :: r) = KBool o r.
Proof. destruct o; reflexivity. Qed.

Lemma classify_cmp_eq o r : classify (map PK (cmp_keys o) ++ r) =
  match o with Is => if hd_is "not" r then KCmp IsNot (tl r) else KCmp Is r | _ => KCmp o r end.
Proof.
  destruct o; try reflexivity.
  cbn [cmp_keys map app]. unfold classify. cbn [String.eqb Ascii.eqb Bool.eqb andb]. unfold cmp_of.
  cbn [String.eqb Ascii.eqb Bool.eqb andb]. destruct r as [|[i|c|k] r']; try reflexivity.
  cbn [hd_is is_key tl]. destruct (String.eqb k "not"); reflexivity.
Qed.

Lemma classify_cmp o r : (o = Is -> hd_is "not" r = false) -> classify (map PK (cmp_keys o) ++ r) = KCmp o r.
Proof. intros H. rewrite classify_cmp_eq. destruct o; try reflexivity. rewrite (H eq_refl). reflexivity. Qed.

Lemma Ev_loop_bool n l ch o r v r' res :
  boolop_prec o <= n ->
  Ev (MExpr (slot_BoolOp o)) r (v, r') -> Ev (MLoop n (extend_bool ch l o v) (CBool o)) r' res ->
  Ev (MLoop n l ch) (PK (bool_key o) :: r) res.
Proof.
  intros Hp H1 H2. apply (Ev_step (ev_and H1 H2)). intros f [E1 E2]. apply Nat.leb_le in Hp.
  cbv [pstep]. rewrite classify_boolop, Hp, E1. exact E2.
Qed.

Lemma Ev_loop_cmp n l ch ts o r c r' res :
  classify ts = KCmp o r -> node_prec_Compare <= n ->
  Ev (MExpr slot_Compare_comparator) r (c, r') -> Ev (MLoop n (extend_cmp ch l o c) CCmp) r' res -> Ev (MLoop n l ch) ts res.
Proof.
  intros Hc Hp H1 H2. apply (Ev_step (ev_and H1 H2)). intros f [E1 E2]. apply Nat.leb_le in Hp.
  cbv [pstep]. rewrite Hc, Hp, E1. exact E2.
Qed.

Lemma Ev_loop_bin n l ch o r x r' res :
  binop_prec o <= n ->
  Ev (MExpr (slot_BinOp_right o)) r (x, r') -> Ev (MLoop n (BinOp l o x) CNone) r' res ->
  Ev (MLoop n l ch) (PK (binop_text o) :: r) res.
Proof.
  intros Hp H1 H2. apply (Ev_step (ev_and H1 H2)). intros f [E1 E2]. apply Nat.leb_le in Hp.
  cbv [pstep]. rewrite classify_binop, Hp, E1. exact E2.
Qed.

(* the chain flag only matters when the chain's own operator follows *)
Definition chain_free (ch : chain) (ts : list pt) : bool :=
  match ch, classify ts with
  | CBool o, KBool o' _ => negb (boolop_eqb o o')
  | CCmp, KCmp _ _ => false
  | _, _ => true
  end.

Lemma Ev_loop_flag n l ch ts res : chain_free ch ts = true -> Ev (MLoop n l CNone) ts res -> Ev (MLoop n l ch) ts res.
Proof.
  intros Hc H. apply (ev_mono H). intros f <-. destruct f as [|f]; [reflexivity|]. rewrite !pc_S. cbv [pstep].
  unfold chain_free in Hc. destruct (classify ts) as [| | | |o' r|o' r| |]; try reflexivity.
  - assert (E : forall v, extend_bool ch l o' v = extend_bool CNone l o' v).
    { intros v. destruct ch as [|o|]; try reflexivity. unfold extend_bool. destruct l; try reflexivity.
      destruct o, o'; try discriminate Hc; reflexivity. }
    destruct (Nat.leb (boolop_prec o') n); [|reflexivity]. destruct (pc f (MExpr (slot_BoolOp o')) r) as [[v r']|]; [|reflexivity].
    rewrite E. reflexivity.
  - destruct ch; try reflexivity. discriminate.
Qed.

Lemma Ev_atom_paren r res : Ev (MElems ")" [] false) r res -> Ev MAtom (PK "(" :: r) res.
Proof. intros H. apply (Ev_step H). intros f E. exact E. Qed.

(* one element of a display: `*v` or an expression *)
Definition pelem (f : nat) (ts : list pt) : option (expr * list pt) :=
  if hd_is "*" ts
  then match pc f (MExpr slot_Starred_value) (tl ts) with Some (v, r) => Some (Starred v, r) | None => None end
  else pc f (MExpr TOP) ts.

Definition elem_ev (ts : list pt) (e : expr) (r : list pt) : Prop := ev (fun f => pelem f ts = Some (e, r)).

Lemma elem_star ts v r : hd_is "*" ts = true -> Ev (MExpr slot_Starred_value) (tl ts) (v, r) -> elem_ev ts (Starred v) r.
Proof. intros Hs H. apply (ev_mono H). intros f E. unfold pelem. rewrite Hs, E. reflexivity. Qed.

Lemma elem_plain ts e r : hd_is "*" ts = false -> Ev (MExpr TOP) ts (e, r) -> elem_ev ts e r.
Proof. intros Hs H. apply (ev_mono H). intros f E. unfold pelem. rewrite Hs. exact E. Qed.

Lemma Ev_elems_close cl acc cm r x : finish cl acc cm = Some x -> Ev (MElems cl acc cm) (PK cl :: r) (x, r).
Proof. intros H. apply Ev_now. intros f. pc_step. rewrite String.eqb_refl, H. reflexivity. Qed.

Lemma Ev_elems_more cl acc cm ts e r res :
  hd_is cl ts = false -> elem_ev ts e (PK "," :: r) -> Ev (MElems cl (e :: acc) true) r res -> Ev (MElems cl acc cm) ts res.
Proof.
  intros Hh H1 H2. apply (Ev_step (ev_and H1 H2)). intros f [E1 E2]. cbv [pstep]. rewrite Hh. fold (pelem f ts). rewrite E1.
  pc_step. exact E2.
Qed.

Lemma Ev_elems_last cl acc cm ts e r x :
  hd_is cl ts = false -> elem_ev ts e (PK cl :: r) -> String.eqb cl "," = false -> finish cl (e :: acc) cm = Some x ->
  Ev (MElems cl acc cm) ts (x, r).
Proof.
  intros Hh H1 Hne Hfin. apply (Ev_step H1). intros f E1. cbv [pstep]. rewrite Hh. fold (pelem f ts).
  rewrite E1, Hne, String.eqb_refl, Hfin. reflexivity.
Qed.

Lemma Ev_elems_comp cl cm ts e r fn gens r2 :
  hd_is cl ts = false -> hd_is "*" ts = false -> is_starred e = false -> String.eqb "for" cl = false ->
  Ev (MExpr TOP) ts (e, PK "for" :: r) ->
  Ev (MGens []) (PK "for" :: r) (GeneratorExp fn gens, PK cl :: r2) ->
  Ev (MElems cl [] cm) ts (GeneratorExp e gens, r2).
Proof.
  intros Hh Hs Hns Hne H1 H2. apply (Ev_step (ev_and H1 H2)). intros f [E1 E2].
  cbv [pstep]. rewrite Hh, Hs, E1. cbv beta iota. rewrite Hne. pc_step. rewrite Hns, E2, String.eqb_refl. reflexivity.
Qed.

Lemma Ev_group ts e rest :
  hd_is ")" ts = false -> hd_is "*" ts = false -> is_starred e = false ->
  Ev (MExpr TOP) ts (e, PK ")" :: rest) -> Ev MAtom (PK "(" :: ts) (e, rest).
Proof.
  intros H1 H2 Hs H. apply Ev_atom_paren. eapply Ev_elems_last; [exact H1|apply elem_plain; [exact H2|exact H]|reflexivity|].
  unfold finish. cbn [String.eqb Ascii.eqb Bool.eqb andb negb]. rewrite Hs. reflexivity.
Qed.

(* operators as descriptors: precedence and the level of the right operand *)
Inductive desc := DBin (o : binop) | DUn (o : unop) | DBool (o : boolop) | DCmp | DIf | DLam | DWal.

Definition d_prec (d : desc) : nat :=
  match d with
  | DBin o => binop_prec o | DUn o => unop_prec o | DBool o => boolop_prec o | DCmp => node_prec_Compare
  | DIf => node_prec_IfExp | DLam => node_prec_Lambda | DWal => node_prec_NamedExpr
  end.

Definition d_rl (d : desc) : nat :=
  match d with
  | DBin o => slot_BinOp_right o | DUn o => slot_UnaryOp o | DBool o => slot_BoolOp o | DCmp => slot_Compare_comparator
  | DIf => slot_IfExp_orelse | DLam => slot_Lambda_body | DWal => slot_NamedExpr_value
  end.

Definition all_descs : list desc :=
  map DBin all_binops ++ [DUn Invert; DUn Not; DUn UAdd; DUn USub; DBool And; DBool Or; DCmp; DIf; DLam; DWal].

Lemma all_descs_complete d : List.In d all_descs.
Proof. destruct d as [[]|[]|[]| | | |]; cbn; repeat (first [left; reflexivity|right]). Qed.

Definition chain_hd (d : desc) (ts : list pt) : bool :=
  match d with DBool o => chain_free (CBool o) ts | DCmp => chain_free CCmp ts | _ => true end.

Definition nowal (ts : list pt) : bool := negb (hd_is ":=" ts).

Definition edge (d : desc) (ts : list pt) : bool := negb (continues (d_rl d) ts) && chain_hd d ts.

(* a context: what follows a child printed in a slot of level s.  It does not begin with `:=` (a name before it would be
   read as a target), and for each operator d that may stand bare in the slot it stops the loops opened for d's right
   operand and does not extend d's chain.  The last conjunct does not mention [rest]: it is the fact about the table that
   d's right operand may then stand bare in the slot as well, put here so that the [ctx_] lemmas check it in the same
   computation. *)
Definition rest_okb (s : nat) (rest : list pt) : bool :=
  nowal rest &&
  forallb (fun d => if Nat.leb (d_prec d) s then edge d rest && Nat.leb (d_rl d) s else true) all_descs.

Lemma rest_ok_desc s rest d : rest_okb s rest = true -> d_prec d <= s ->
  continues (d_rl d) rest = false /\ chain_hd d rest = true /\ d_rl d <= s.
Proof.
  intros H Hp. apply andb_prop in H as [_ H].
  rewrite forallb_forall in H. specialize (H d (all_descs_complete d)). apply Nat.leb_le in Hp. rewrite Hp in H.
  apply andb_prop in H as [H1 H2]. apply andb_prop in H1 as [H0 H1]. apply negb_true_iff in H0. apply Nat.leb_le in H2. auto.
Qed.

Lemma prefix_name s i r : rest_okb s r = true -> classify_prefix (PN i :: r) = PAtom.
Proof. intros H. apply andb_prop in H as [H _]. apply negb_true_iff in H. cbn [classify_prefix]. rewrite H. reflexivity. Qed.

Definition closer (k : string) : bool := existsb (String.eqb k) [")"; ","; "]"; "else"; "}"; "for"; ":"].

(* a fact about every key of a literal list is [Forall P] over the list, which [repeat constructor] takes apart, closing
   each instance by computation *)
Lemma key_among (ks : list string) (P : string -> Prop) : Forall P ks -> forall k, existsb (String.eqb k) ks = true -> P k.
Proof.
  intros HF k H. apply existsb_exists in H as (x & Hin & E). apply String.eqb_eq in E. subst x.
  rewrite Forall_forall in HF. exact (HF k Hin).
Qed.

Lemma continues_closer m k r : closer k = true -> continues m (PK k :: r) = false.
Proof. revert k. apply key_among. repeat constructor. Qed.

Lemma closer_facts k : closer k = true ->
  String.eqb k "*" = false /\ String.eqb k "=" = false /\ String.eqb k "**" = false.
Proof. revert k. apply key_among. repeat constructor. Qed.

Lemma continues_same_bool o r : continues (slot_BoolOp o) (PK (bool_key o) :: r) = false.
Proof. unfold continues. rewrite classify_boolop. destruct o; reflexivity. Qed.

Lemma cmp_class o r : exists o' r', classify (map PK (cmp_keys o) ++ r) = KCmp o' r'.
Proof. rewrite classify_cmp_eq. destruct o; try (eexists _, _; reflexivity). destruct (hd_is "not" r); eexists _, _; reflexivity. Qed.

Lemma continues_cmp m o r : continues m (map PK (cmp_keys o) ++ r) = Nat.leb node_prec_Compare m.
Proof. unfold continues. destruct (cmp_class o r) as [o' [r' E]]. rewrite E. reflexivity. Qed.

Lemma ctx_binop o r : rest_okb (slot_BinOp_left o) (PK (binop_text o) :: r) = true.
Proof. destruct o; reflexivity. Qed.

Lemma ctx_boolop o r : rest_okb (slot_BoolOp o) (PK (bool_key o) :: r) = true.
Proof. destruct o; reflexivity. Qed.

Lemma ctx_cmp o r : rest_okb slot_Compare_left (map PK (cmp_keys o) ++ r) = true.
Proof.
  unfold rest_okb. apply andb_true_intro. split; [destruct o; reflexivity|].
  apply forallb_forall. intros d _. unfold edge. rewrite continues_cmp. unfold chain_hd, chain_free.
  destruct (cmp_class o r) as [o' [r' E]]. rewrite E.
  destruct d as [o''|o''|o''| | | |]; try destruct o''; reflexivity.
Qed.

Lemma ctx_if r : rest_okb slot_IfExp_body (PK "if" :: r) = true.
Proof. reflexivity. Qed.

Lemma ctx_closer k r : closer k = true -> rest_okb TOP (PK k :: r) = true.
Proof. revert k. apply key_among. repeat constructor. Qed.

Definition np_vals : list nat :=
  [node_prec_Name; node_prec_Constant; node_prec_Compare; node_prec_IfExp; node_prec_Lambda; node_prec_NamedExpr;
   node_prec_Attribute; node_prec_Call; node_prec_Subscript] ++
  map binop_prec all_binops ++ map unop_prec [Invert; Not; UAdd; USub] ++ map boolop_prec [And; Or].

Lemma core_np e : core e = true -> existsb (Nat.eqb (node_prec e)) np_vals = true.
Proof. destruct e; try discriminate; intros _; try destruct op; try destruct o; reflexivity. Qed.

Lemma np_fact (P : nat -> bool) : forallb P np_vals = true -> forall e, core e = true -> P (node_prec e) = true.
Proof.
  intros H e Hc. apply core_np, existsb_exists in Hc as (v & Hv & E). apply Nat.eqb_eq in E. rewrite E.
  rewrite forallb_forall in H. apply H. exact Hv.
Qed.

Lemma np_top e : core e = true -> node_prec e <= TOP.
Proof. intros Hc. apply Nat.leb_le. apply (np_fact (fun v => Nat.leb v TOP)); [reflexivity|exact Hc]. Qed.

(* [np_le s p]: a node of the core that may stand bare in a slot of level s has precedence at most p *)
Definition np_le (s p : nat) : bool := forallb (fun v => implb (Nat.leb v s) (Nat.leb v p)) np_vals.

Lemma np_small s p e : np_le s p = true -> core e = true -> node_prec e <= s -> node_prec e <= p.
Proof.
  intros G Hc H. apply Nat.leb_le in H. apply Nat.leb_le. pose proof (np_fact _ G e Hc) as F. cbv beta in F. rewrite H in F. exact F.
Qed.

Lemma np_le_refl s : np_le s s = true.
Proof. apply forallb_forall. intros v _. destruct (Nat.leb v s); reflexivity. Qed.

Lemma ec_core e : core e && negb (is_starred e) = true -> core e = true.
Proof. intros H. apply andb_prop in H as [H _]. exact H. Qed.

Lemma ec_nostar e : core e && negb (is_starred e) = true -> is_starred e = false.
Proof. intros H. apply andb_prop in H as [_ H]. apply negb_true_iff in H. exact H. Qed.

Lemma core_compare l ops cs : core (Compare l ops cs) = true ->
  ecore l = true /\ length ops = length cs /\ 1 <= length cs /\ forallb ecore cs = true.
Proof.
  cbn [core]. intros H. apply andb_prop in H as [H Hcs]. apply andb_prop in H as [H H1]. apply andb_prop in H as [Hl Hlen].
  apply Nat.eqb_eq in Hlen. apply Nat.leb_le in H1. repeat split; assumption.
Qed.

Definition start_keys : list string := ["("; "lambda"; "not"; "-"; "+"; "~"; "["; "{"; "*"].

Definition start_tok (t : pt) : bool := match t with PN _ | PL _ => true | PK k => existsb (String.eqb k) start_keys end.

Definition below_not (s : nat) : Prop := s < unop_prec Not.

Definition bracket (k : string) : bool := existsb (String.eqb k) [")"; "]"; "}"].

Lemma bracket_facts k : bracket k = true ->
  closer k = true /\ String.eqb k "," = false /\ String.eqb k "for" = false /\ String.eqb "for" k = false /\
  existsb (String.eqb k) start_keys = false.
Proof. revert k. apply key_among. repeat constructor. Qed.

Definition is_kwstart (ts : list pt) : bool := match ts with PN _ :: t2 :: _ => is_key "=" t2 | _ => false end.

(* the first token: it is `*` only for a starred expression, and `not` only in a slot that admits a bare `not`;
   and a leading name is not followed by `=` unless [rest] brings it *)
Definition head_ok (s : nat) (e : expr) (rest ts : list pt) : Prop :=
  (exists t r, ts = t :: r /\ start_tok t = true /\ (is_key "*" t = true -> is_starred e = true) /\
               (is_key "not" t = true -> ~ below_not s)) /\
  (hd_is "=" rest = false -> is_kwstart ts = false).

Lemma head_ok_cons s e rest t r :
  start_tok t = true -> is_key "*" t = false -> is_key "not" t = false -> (hd_is "=" rest = false -> is_kwstart (t :: r) = false) ->
  head_ok s e rest (t :: r).
Proof. intros H1 H2 H3 H4. split; [|exact H4]. exists t, r. rewrite H2, H3. repeat split; [exact H1|discriminate|discriminate]. Qed.

Lemma pparen_head s e rest0 b ts rest : (b = false -> head_ok s e rest0 (ts ++ rest)) -> head_ok s e rest0 (pparen b ts ++ rest).
Proof. intros H. destruct b; [apply head_ok_cons; reflexivity|apply H; reflexivity]. Qed.

(* a node begins with its left operand, which [rest'] follows *)
Lemma head_ok_child s' l rest' s e rest ts :
  is_starred l = false -> (below_not s -> below_not s') -> head_ok s' l rest' ts -> hd_is "=" rest' = false -> head_ok s e rest ts.
Proof.
  intros Hs Hn [(t & r & E & Hst & Hk & Hnot) Hkw] Hr. split; [|intros _; exact (Hkw Hr)].
  exists t, r. split; [exact E|]. split; [exact Hst|]. split.
  - intros K. specialize (Hk K). congruence.
  - intros K B. exact (Hnot K (Hn B)).
Qed.

Lemma pp_head : forall e, core e = true -> forall s rest, head_ok s e rest (pp s e ++ rest).
Proof.
  induction e as [i | c | vs IHvs | v conv spec IHv IHspec | v IHv | l o r IHl IHr | o vs IHvs | o v IHv | l IHl | l IHl | l IHl
                 | ks vs IHks IHvs | l ops cs IHl IHcs | v a IHv | v ix IHv IHix | a b c IHa IHb IHc | f args kws IHf IHargs IHkws
                 | t v IHv | po ar va ko kd kw de body IHkd IHde IHbody | x gs IHx IHgs | x gs IHx IHgs | x gs IHx IHgs
                 | k v gs IHk IHv IHgs | t b o IHt IHb IHo | v IHv | v IHv | v IHv | k] using expr_ind';
    intros Hc s rest; cbn [core] in Hc; try discriminate; rewrite pp_unfold; apply pparen_head;
    intros Hb; apply Nat.ltb_ge in Hb; cbn [pbody node_prec] in *; try (apply head_ok_cons; reflexivity).
  - (* Name *) apply head_ok_cons; try reflexivity. destruct rest; [reflexivity|exact (fun H => H)].
  - (* Starred *) split; [|reflexivity]. exists (PK "*"), (pp slot_Starred_value v ++ rest). repeat split. discriminate.
  - (* BinOp *) apply andb_prop in Hc as [Hc1 _]. rewrite <- app_assoc.
    eapply (head_ok_child (slot_BinOp_left o) l); [exact (ec_nostar _ Hc1)| |apply IHl; exact (ec_core _ Hc1)|destruct o; reflexivity].
    (* in the table, the left slot of an operator that stands bare below `not` is itself below `not`; so for BoolOp and
       IfExp further on *)
    unfold below_not. destruct o; vm_compute; lia.
  - (* BoolOp *) apply andb_prop in Hc as [Hl Hc]. destruct vs as [|v1 [|v2 t]]; try discriminate.
    inversion IHvs as [|? ? H1 _]; subst. cbn [forallb] in Hc. apply andb_prop in Hc as [Hc1 _].
    cbn [map join]. rewrite <- app_assoc.
    eapply (head_ok_child (slot_BoolOp o) v1); [exact (ec_nostar _ Hc1)| |apply H1; exact (ec_core _ Hc1)|destruct o; reflexivity].
    unfold below_not. destruct o; vm_compute in Hb |- *; lia.
  - (* UnaryOp *) destruct o; try (apply head_ok_cons; reflexivity). split; [|reflexivity].
    exists (PK "not"), (pp (slot_UnaryOp Not) v ++ rest). repeat split; [discriminate|]. unfold below_not. lia.
  - (* ETuple *) destruct l as [|x [|y t]]; apply head_ok_cons; reflexivity.
  - (* Compare *) apply core_compare in Hc as (Hc1 & Hlen & Hl1 & _). rewrite <- app_assoc.
    eapply (head_ok_child slot_Compare_left l); [exact (ec_nostar _ Hc1)|intros _; vm_compute; lia|apply IHl; exact (ec_core _ Hc1)| ].
    destruct cs; [cbn in Hl1; lia|]. destruct ops as [|o ops]; [discriminate|]. destruct o; reflexivity.
  - (* Attribute *) rewrite <- app_assoc. apply pparen_head. intros _.
    eapply (head_ok_child slot_Attribute_value v); [exact (ec_nostar _ Hc)|intros _; vm_compute; lia|apply IHv; exact (ec_core _ Hc)|reflexivity].
  - (* Subscript *) apply andb_prop in Hc as [Hc1 _]. rewrite <- app_assoc.
    eapply (head_ok_child slot_Subscript_value v); [exact (ec_nostar _ Hc1)|intros _; vm_compute; lia|apply IHv; exact (ec_core _ Hc1)|reflexivity].
  - (* Call *) apply andb_prop in Hc as [Hc1 _]. rewrite <- app_assoc.
    eapply (head_ok_child slot_Call_func f); [exact (ec_nostar _ Hc1)|intros _; vm_compute; lia|apply IHf; exact (ec_core _ Hc1)|reflexivity].
  - (* IfExp *) apply andb_prop in Hc as [Hc _]. apply andb_prop in Hc as [_ Hc2]. rewrite <- app_assoc.
    eapply (head_ok_child slot_IfExp_body b); [exact (ec_nostar _ Hc2)| |apply IHb; exact (ec_core _ Hc2)|reflexivity].
    unfold below_not. vm_compute in Hb |- *. lia.
Qed.

Lemma pp_head_not_key k e s rest : core e = true -> existsb (String.eqb k) start_keys = false -> hd_is k (pp s e ++ rest) = false.
Proof.
  intros Hc Hk. destruct (pp_head e Hc s rest) as [(t & r & -> & Ht & _) _]. destruct t as [i|c|k']; try reflexivity.
  cbn [hd_is is_key start_tok] in *. destruct (String.eqb_spec k' k) as [->|]; [|reflexivity]. rewrite Hk in Ht. discriminate.
Qed.

Lemma pp_head_nostar e s rest : core e = true -> is_starred e = false -> hd_is "*" (pp s e ++ rest) = false.
Proof.
  intros Hc Hs. destruct (pp_head e Hc s rest) as [(t & r & -> & _ & Hk & _) _]. cbn [hd_is].
  destruct (is_key "*" t); [|reflexivity]. specialize (Hk eq_refl). congruence.
Qed.

(* an expression printed in a slot below `not` does not begin with the keyword `not` (so `is` followed by it is `is`) *)
Lemma pp_head_not_not : forall e, core e = true -> forall s rest, below_not s -> hd_is "not" (pp s e ++ rest) = false.
Proof.
  intros e Hc s rest Hs. destruct (pp_head e Hc s rest) as [(t & r & -> & _ & _ & Hn) _]. cbn [hd_is].
  destruct (is_key "not" t); [|reflexivity]. destruct (Hn eq_refl Hs).
Qed.

(* a positional argument is not mistaken for a keyword argument *)
Lemma pp_nokw e s rest : core e = true -> hd_is "=" rest = false -> is_kwstart (pp s e ++ rest) = false.
Proof. intros Hc. exact (proj2 (pp_head e Hc s rest)). Qed.

Lemma pp_top e : core e = true -> pp TOP e = pbody e.
Proof. intros Hc. rewrite pp_unfold. apply np_top, Nat.ltb_ge in Hc. rewrite Hc. reflexivity. Qed.

(* the statement of the induction, for a node printed bare in a context that admits it *)
Definition A_stmt (e : expr) : Prop :=
  forall n s rest res, node_prec e <= n -> node_prec e <= s -> rest_okb s rest = true ->
    Ev (MLoop n e CNone) rest res -> Ev (MExpr n) (pbody e ++ rest) res.

Definition opP (e : expr) : Prop := core e = true /\ is_starred e = false /\ A_stmt e.

(* a child printed in a slot of level s, in parentheses or bare; bare, the context [rest] suits a slot of level c *)
Lemma child e s c n rest res : opP e -> rest_okb c rest = true ->
  (node_prec e <= s -> node_prec e <= n /\ node_prec e <= c) ->
  Ev (MLoop n e CNone) rest res -> Ev (MExpr n) (pp s e ++ rest) res.
Proof.
  intros (Hc & Hns & HA) Hr Hcond Hloop. rewrite pp_unfold. destruct (Nat.ltb s (node_prec e)) eqn:E.
  - cbn [pparen app]. rewrite <- app_assoc. cbn [app]. rewrite <- (pp_top e Hc).
    eapply Ev_expr_atom; [reflexivity| |exact Hloop].
    apply Ev_group; [apply pp_head_not_key; [exact Hc|reflexivity]|apply pp_head_nostar; assumption|exact Hns|].
    rewrite (pp_top e Hc). apply (HA TOP TOP); [apply np_top; exact Hc|apply np_top; exact Hc|apply ctx_closer; reflexivity|].
    apply Ev_loop_stop. reflexivity.
  - apply Nat.ltb_ge in E. destruct (Hcond E) as [Hn Hs]. apply (HA n c); assumption.
Qed.

(* the left operand of an operator of precedence p, printed in the slot s the operator's key follows *)
Lemma left_child e s p n rest res : opP e -> rest_okb s rest = true -> np_le s p = true -> p <= n ->
  Ev (MLoop n e CNone) rest res -> Ev (MExpr n) (pp s e ++ rest) res.
Proof.
  intros He Hr Hsp Hpn. apply (child e s s n); [exact He|exact Hr|]. intros Hle. split; [|exact Hle].
  destruct He as [Hc _]. pose proof (np_small s p e Hsp Hc Hle). lia.
Qed.

Lemma right_child d e s rest : opP e -> d_prec d <= s -> rest_okb s rest = true ->
  Ev (MExpr (d_rl d)) (pp (d_rl d) e ++ rest) (e, rest).
Proof.
  intros He Hp Hr. destruct (rest_ok_desc s rest d Hr Hp) as (Hstop & _ & Hl).
  apply (child e (d_rl d) s (d_rl d)); [exact He|exact Hr|lia|]. apply Ev_loop_stop. exact Hstop.
Qed.

Lemma closed_child e s lvl k rest : opP e -> closer k = true -> (node_prec e <= s -> node_prec e <= lvl) ->
  Ev (MExpr lvl) (pp s e ++ PK k :: rest) (e, PK k :: rest).
Proof.
  intros He Hk Hl. apply (child e s TOP lvl); [exact He|apply ctx_closer; exact Hk| |].
  - intros Hle. split; [exact (Hl Hle)|apply np_top; apply He].
  - apply Ev_loop_stop. apply continues_closer. exact Hk.
Qed.

Lemma closed_own e s k rest : opP e -> closer k = true -> Ev (MExpr s) (pp s e ++ PK k :: rest) (e, PK k :: rest).
Proof. intros He Hk. apply closed_child; [exact He|exact Hk|exact (fun H => H)]. Qed.

Lemma closed_top e s k rest : opP e -> closer k = true -> Ev (MExpr TOP) (pp s e ++ PK k :: rest) (e, PK k :: rest).
Proof. intros He Hk. apply closed_child; [exact He|exact Hk|intros _; apply np_top; apply He]. Qed.

Definition seps {X} (sep : list X) (items : list (list X)) : list X := flat_map (fun y => sep ++ y) items.

Lemma join_flat {X} (sep : list X) x l : join sep (x :: l) = x ++ seps sep l.
Proof.
  revert x. induction l as [|y t IH]; intros x; [cbn; rewrite app_nil_r; reflexivity|].
  change (join sep (x :: y :: t)) with (x ++ sep ++ join sep (y :: t)). rewrite IH. cbn [seps flat_map]. rewrite <- app_assoc. reflexivity.
Qed.

Lemma flat_cons {X Y} (f : X -> list Y) x l rest : flat_map f (x :: l) ++ rest = f x ++ (flat_map f l ++ rest).
Proof. cbn [flat_map]. rewrite <- app_assoc. reflexivity. Qed.

Lemma seps_cons {X} (sep : list X) x l rest : seps sep (x :: l) ++ rest = sep ++ (x ++ (seps sep l ++ rest)).
Proof. unfold seps. rewrite flat_cons, <- app_assoc. reflexivity. Qed.

Lemma seps_head k items cl rest : exists k' r, seps [PK k] items ++ PK cl :: rest = PK k' :: r /\ (k' = k \/ k' = cl).
Proof.
  destruct items as [|i t]; [exists cl, rest; split; [reflexivity|right; reflexivity]|].
  rewrite seps_cons. eexists _, _. split; [reflexivity|left; reflexivity].
Qed.

Lemma Forall_guard {X} (P Q : X -> Prop) (b : X -> bool) l :
  (forall x, P x -> b x = true -> Q x) -> Forall P l -> forallb b l = true -> Forall Q l.
Proof.
  intros HPQ HF Hb. rewrite forallb_forall in Hb. rewrite Forall_forall in HF |- *. intros x Hx. apply HPQ; [apply HF|apply Hb]; exact Hx.
Qed.

Lemma A_name i : A_stmt (Name i).
Proof.
  intros n s rest res _ _ Hr Hloop. eapply Ev_expr_atom; [exact (prefix_name s i rest Hr)|apply Ev_now; reflexivity|exact Hloop].
Qed.

Lemma A_atom e : (forall rest, classify_prefix (pbody e ++ rest) = PAtom) ->
  (forall rest, Ev MAtom (pbody e ++ rest) (e, rest)) -> A_stmt e.
Proof. intros Hp Ha n s rest res _ _ _ Hloop. eapply Ev_expr_atom; [apply Hp|apply Ha|exact Hloop]. Qed.

Lemma A_const c : A_stmt (Constant c).
Proof. apply A_atom; intros rest; [reflexivity|apply Ev_now; reflexivity]. Qed.

Lemma A_binop l o r : opP l -> opP r -> A_stmt (BinOp l o r).
Proof.
  intros Hl Hr n s rest res Hn Hs Hok Hloop. cbn [pbody node_prec] in *. rewrite <- app_assoc. cbn [app].
  apply (left_child l (slot_BinOp_left o) (binop_prec o)); [exact Hl|apply ctx_binop|destruct o; reflexivity|exact Hn|].
  eapply Ev_loop_bin; [exact Hn|apply (right_child (DBin o) r s); assumption|exact Hloop].
Qed.

Lemma A_unop o v : opP v -> A_stmt (UnaryOp o v).
Proof.
  intros Hv n s rest res Hn Hs Hok Hloop. cbn [pbody node_prec app] in *.
  eapply Ev_expr_un; [exact Hn|apply (right_child (DUn o) v s); assumption|exact Hloop].
Qed.

(* the operands after the first.  [L] is what the loop holds when it meets the operator: the first operand with [ch = CNone],
   or the chain [BoolOp o prev] built so far with [ch = CBool o]; the hypothesis on [extend_bool] covers both, [prev] being
   the operands already read. *)
Lemma bool_chain n s o rest res : boolop_prec o <= n -> boolop_prec o <= s -> rest_okb s rest = true ->
  forall ws w prev L ch, opP w -> Forall opP ws -> (forall v, extend_bool ch L o v = BoolOp o (prev ++ [v])) ->
    Ev (MLoop n (BoolOp o (prev ++ w :: ws)) (CBool o)) rest res ->
    Ev (MLoop n L ch)
       (PK (bool_key o) :: pp (slot_BoolOp o) w ++ seps [PK (bool_key o)] (map (pp (slot_BoolOp o)) ws) ++ rest) res.
Proof.
  intros Hn Hs Hr. induction ws as [|w2 ws IH]; intros w prev L ch Hw HF Hext Hfin.
  - cbn [map seps flat_map app]. eapply Ev_loop_bool; [exact Hn|apply (right_child (DBool o) w s); assumption|].
    rewrite Hext. exact Hfin.
  - inversion HF as [|? ? Hw2 HF']; subst. cbn [map]. rewrite seps_cons. cbn [app].
    eapply Ev_loop_bool; [exact Hn| |].
    + apply (left_child w (slot_BoolOp o) (slot_BoolOp o)); [exact Hw|apply ctx_boolop|apply np_le_refl|apply Nat.le_refl|].
      apply Ev_loop_stop. apply continues_same_bool.
    + rewrite Hext. apply (IH w2 (prev ++ [w]) _ (CBool o)); [exact Hw2|exact HF'| |rewrite <- app_assoc; exact Hfin].
      intros v. unfold extend_bool. destruct o; reflexivity.
Qed.

Lemma A_boolop o vs : 2 <= length vs -> Forall opP vs -> A_stmt (BoolOp o vs).
Proof.
  intros Hl HF n s rest res Hn Hs Hok Hloop. destruct vs as [|v1 [|v2 t]]; cbn [length] in Hl; try lia.
  inversion HF as [|? ? H1 HF1]; subst. inversion HF1 as [|? ? H2 HF2]; subst.
  cbn [pbody node_prec map] in *. rewrite join_flat, <- app_assoc, seps_cons. cbn [app].
  destruct (rest_ok_desc s rest (DBool o) Hok Hs) as (_ & Hch & _).
  apply (left_child v1 (slot_BoolOp o) (boolop_prec o)); [exact H1|apply ctx_boolop|destruct o; reflexivity|exact Hn|].
  apply (bool_chain n s o rest res Hn Hs Hok t v2 [v1] v1 CNone); [exact H2|exact HF2|reflexivity|].
  apply Ev_loop_flag; [exact Hch|exact Hloop].
Qed.

Definition ctoks : list expr -> list cmpop -> list pt :=
  fix go (cs : list expr) (ops : list cmpop) : list pt :=
    match cs, ops with
    | c :: cs', o :: ops' => map PK (cmp_keys o) ++ pp slot_Compare_comparator c ++ go cs' ops'
    | _, _ => []
    end.

Lemma pbody_compare l ops cs : pbody (Compare l ops cs) = pp slot_Compare_left l ++ ctoks cs ops.
Proof. reflexivity. Qed.

Lemma ctoks_cons c cs o ops rest :
  ctoks (c :: cs) (o :: ops) ++ rest = map PK (cmp_keys o) ++ (pp slot_Compare_comparator c ++ (ctoks cs ops ++ rest)).
Proof. cbn [ctoks]. rewrite <- !app_assoc. reflexivity. Qed.

(* as [bool_chain]: [l0] is the left operand, [pops] and [pcs] the operators and comparators already read *)
Lemma cmp_chain n s l0 rest res : node_prec_Compare <= n -> node_prec_Compare <= s -> rest_okb s rest = true ->
  forall cs c ops o pops pcs L ch, length ops = length cs -> opP c -> Forall opP cs ->
    (forall o c, extend_cmp ch L o c = Compare l0 (pops ++ [o]) (pcs ++ [c])) ->
    Ev (MLoop n (Compare l0 (pops ++ o :: ops) (pcs ++ c :: cs)) CCmp) rest res ->
    Ev (MLoop n L ch) (ctoks (c :: cs) (o :: ops) ++ rest) res.
Proof.
  intros Hn Hs Hr.
  assert (Hcls : forall c o r, opP c ->
            classify (map PK (cmp_keys o) ++ pp slot_Compare_comparator c ++ r) = KCmp o (pp slot_Compare_comparator c ++ r)).
  { intros c o r Hc. apply classify_cmp. intros _. apply pp_head_not_not; [apply Hc|unfold below_not; vm_compute; lia]. }
  induction cs as [|c2 cs IH]; intros c ops o pops pcs L ch Hlen Hc HF Hext Hfin; rewrite ctoks_cons.
  - destruct ops; [|discriminate]. cbn [ctoks app].
    eapply Ev_loop_cmp; [apply Hcls; exact Hc|exact Hn|apply (right_child DCmp c s); assumption|]. rewrite Hext. exact Hfin.
  - destruct ops as [|o2 ops]; [discriminate|]. injection Hlen as Hlen. inversion HF as [|? ? Hc2 HF']; subst.
    eapply Ev_loop_cmp; [apply Hcls; exact Hc|exact Hn| |].
    + rewrite ctoks_cons.
      apply (left_child c slot_Compare_comparator slot_Compare_comparator); [exact Hc|apply ctx_cmp|apply np_le_refl|apply Nat.le_refl|].
      apply Ev_loop_stop. rewrite continues_cmp. reflexivity.
    + rewrite Hext, <- ctoks_cons. apply (IH c2 ops o2 (pops ++ [o]) (pcs ++ [c]) _ CCmp); [exact Hlen|exact Hc2|exact HF'|reflexivity|].
      rewrite <- !app_assoc. exact Hfin.
Qed.

Lemma A_compare l ops cs : opP l -> Forall opP cs -> length ops = length cs -> 1 <= length cs -> A_stmt (Compare l ops cs).
Proof.
  intros Hl HF Hlen H1 n s rest res Hn Hs Hok Hloop.
  rewrite pbody_compare. cbn [node_prec] in *.
  destruct cs as [|c cs]; [cbn in H1; lia|]. destruct ops as [|o ops]; [discriminate|]. injection Hlen as Hlen.
  inversion HF as [|? ? Hc HF']; subst.
  destruct (rest_ok_desc s rest DCmp Hok Hs) as (_ & Hch & _). rewrite <- app_assoc.
  apply (left_child l slot_Compare_left node_prec_Compare); [exact Hl|rewrite ctoks_cons; apply ctx_cmp|reflexivity|exact Hn|].
  apply (cmp_chain n s l rest res Hn Hs Hok cs c ops o [] [] l CNone); [exact Hlen|exact Hc|exact HF'|reflexivity|].
  apply Ev_loop_flag; [exact Hch|exact Hloop].
Qed.

Lemma A_ifexp t b o : opP t -> opP b -> opP o -> A_stmt (IfExp t b o).
Proof.
  intros Ht Hb Ho n s rest res Hn Hs Hok Hloop. cbn [pbody node_prec] in *.
  rewrite <- app_assoc. cbn [app]. rewrite <- app_assoc. cbn [app].
  apply (left_child b slot_IfExp_body node_prec_IfExp); [exact Hb|apply ctx_if|reflexivity|exact Hn|].
  eapply Ev_loop_if; [exact Hn|apply closed_own; [exact Ht|reflexivity]
                     |apply (right_child DIf o s); assumption|exact Hloop].
Qed.

Lemma A_named t v : opP v -> A_stmt (NamedExpr t v).
Proof.
  intros Hv n s rest res Hn Hs Hok Hloop. cbn [pbody node_prec app] in *.
  eapply Ev_expr_wal; [exact Hn|apply (right_child DWal v s); assumption|exact Hloop].
Qed.

Lemma A_attribute v a : opP v -> A_stmt (Attribute v a).
Proof.
  intros Hv n s rest res Hn Hs Hok Hloop. cbn [pbody node_prec] in *. rewrite <- app_assoc. cbn [app].
  destruct (int_literal v).
  - (* (1).real *) cbn [pparen app]. rewrite <- app_assoc. cbn [app].
    eapply Ev_expr_atom; [reflexivity| |apply Ev_loop_dot; exact Hloop].
    apply Ev_group; [apply pp_head_not_key; [apply Hv|reflexivity]|apply pp_head_nostar; apply Hv|apply Hv|].
    apply closed_top; [exact Hv|reflexivity].
  - apply (left_child v slot_Attribute_value node_prec_Attribute); [exact Hv|reflexivity|reflexivity|exact Hn|].
    apply Ev_loop_dot. exact Hloop.
Qed.

Lemma Ev_items_last acc ts e r : hd_is "]" ts = false -> hd_is "," r = false ->
  Ev MIndex ts (e, r) -> Ev (MItems acc) ts (match acc with [] => e | _ :: _ => ETuple (rev (e :: acc)) end, r).
Proof. intros H1 H2 H. apply (Ev_step H). intros f E. cbv [pstep]. rewrite H1, E, H2. destruct acc; reflexivity. Qed.

Lemma Ev_items_more acc ts e r res : hd_is "]" ts = false ->
  Ev MIndex ts (e, PK "," :: r) -> Ev (MItems (e :: acc)) r res -> Ev (MItems acc) ts res.
Proof. intros H1 H2 H3. apply (Ev_step (ev_and H2 H3)). intros f [E2 E3]. cbv [pstep]. rewrite H1, E2. pc_step. exact E3. Qed.

Lemma Ev_index_plain ts e r : hd_is ":" ts = false -> hd_is ":" r = false ->
  Ev (MExpr slot_Subscript_slice) ts (e, r) -> Ev MIndex ts (e, r).
Proof. intros H1 H2 H. apply (Ev_step H). intros f E. cbv [pstep]. rewrite H1, E, H2. reflexivity. Qed.

Lemma Ev_index_colon r res : Ev (MSliceUp None) r res -> Ev MIndex (PK ":" :: r) res.
Proof. intros H. apply (Ev_step H). intros f E. exact E. Qed.

Lemma Ev_index_lower ts e r res : hd_is ":" ts = false ->
  Ev (MExpr slot_Subscript_slice) ts (e, PK ":" :: r) -> Ev (MSliceUp (Some e)) r res -> Ev MIndex ts res.
Proof. intros H1 H2 H3. apply (Ev_step (ev_and H2 H3)). intros f [E2 E3]. cbv [pstep]. rewrite H1, E2. pc_step. exact E3. Qed.

Lemma Ev_up_none lower r res : Ev (MSliceStep lower None) r res -> Ev (MSliceUp lower) (PK ":" :: r) res.
Proof. intros H. apply (Ev_step H). intros f E. exact E. Qed.

Lemma Ev_up_some lower ts u r res : slice_stop ts = false ->
  Ev (MExpr slot_Slice_upper) ts (u, PK ":" :: r) -> Ev (MSliceStep lower (Some u)) r res -> Ev (MSliceUp lower) ts res.
Proof. intros H1 H2 H3. apply (Ev_step (ev_and H2 H3)). intros f [E2 E3]. cbv [pstep]. rewrite H1, E2. pc_step. exact E3. Qed.

Lemma Ev_slicestep_none lower upper ts : slice_stop ts = true -> Ev (MSliceStep lower upper) ts (Slice lower upper None, ts).
Proof. intros H. apply Ev_now. intros f. cbv [pstep]. rewrite H. reflexivity. Qed.

Lemma Ev_slicestep_some lower upper ts st r : slice_stop ts = false ->
  Ev (MExpr slot_Slice_step) ts (st, r) -> Ev (MSliceStep lower upper) ts (Slice lower upper (Some st), r).
Proof. intros H1 H. apply (Ev_step H). intros f E. cbv [pstep]. rewrite H1, E. reflexivity. Qed.

Definition idxP (x : expr) : Prop := match x with Slice a b c => Po opP a /\ Po opP b /\ Po opP c | _ => opP x end.

Definition otoks (s : nat) (o : option expr) : list pt := match o with Some y => pp s y | None => [] end.

Lemma pp_slice a b c : pp slot_Subscript_slice (Slice a b c) =
  otoks slot_Slice_lower a ++ PK ":" :: otoks slot_Slice_upper b ++ PK ":" :: otoks slot_Slice_step c.
Proof. reflexivity. Qed.

Lemma part_ev s y k r : opP y -> closer k = true ->
  Ev (MExpr s) (pp s y ++ PK k :: r) (y, PK k :: r) /\ slice_stop (pp s y ++ PK k :: r) = false /\
  hd_is ":" (pp s y ++ PK k :: r) = false.
Proof.
  intros Hy Hk. split; [|split].
  - apply closed_own; [exact Hy|exact Hk].
  - unfold slice_stop. rewrite !(pp_head_not_key _ y s _ (proj1 Hy)) by reflexivity. reflexivity.
  - apply pp_head_not_key; [apply Hy|reflexivity].
Qed.

Lemma slice_step_ev lo up c k rest : Po opP c -> closer k = true -> slice_stop (PK k :: rest) = true ->
  Ev (MSliceStep lo up) (otoks slot_Slice_step c ++ PK k :: rest) (Slice lo up c, PK k :: rest).
Proof.
  intros Hc Hk Hst. destruct c as [y|]; [|apply Ev_slicestep_none; exact Hst].
  destruct (part_ev slot_Slice_step y k rest Hc Hk) as (E1 & E2 & _). apply Ev_slicestep_some; assumption.
Qed.

Lemma slice_up_ev lo b c k rest : Po opP b -> Po opP c -> closer k = true -> slice_stop (PK k :: rest) = true ->
  Ev (MSliceUp lo) (otoks slot_Slice_upper b ++ PK ":" :: otoks slot_Slice_step c ++ PK k :: rest) (Slice lo b c, PK k :: rest).
Proof.
  intros Hb Hc Hk Hst. pose proof (fun up => slice_step_ev lo up c k rest Hc Hk Hst) as Hstep.
  destruct b as [y|]; [|apply Ev_up_none; apply Hstep].
  destruct (part_ev slot_Slice_upper y ":" (otoks slot_Slice_step c ++ PK k :: rest) Hb eq_refl) as (E1 & E2 & _).
  eapply Ev_up_some; [exact E2|exact E1|apply Hstep].
Qed.

Lemma index_item_ev x k rest : idxP x -> (k = "]" \/ k = ",") ->
  Ev MIndex (pp slot_Subscript_slice x ++ PK k :: rest) (x, PK k :: rest).
Proof.
  intros Hx Hk.
  assert (closer k = true /\ slice_stop (PK k :: rest) = true /\ hd_is ":" (PK k :: rest) = false) as (Hcl & Hst & Hnc)
    by (destruct Hk; subst; repeat split).
  destruct x; try (destruct (part_ev slot_Subscript_slice _ k rest Hx Hcl) as (E1 & _ & E3); apply Ev_index_plain; assumption).
  (* a slice: lower : upper : step *)
  destruct Hx as (Qa & Qb & Qc). rewrite pp_slice, <- !app_assoc. cbn [app]. rewrite <- !app_assoc. cbn [app].
  pose proof (fun lo => slice_up_ev lo upper step k rest Qb Qc Hcl Hst) as Hup.
  destruct lower as [y|]; [|apply Ev_index_colon; apply Hup].
  destruct (part_ev slot_Slice_lower y ":" (otoks slot_Slice_upper upper ++ PK ":" :: otoks slot_Slice_step step ++ PK k :: rest) Qa eq_refl)
    as (E1 & _ & E3).
  eapply Ev_index_lower; [exact E3|exact E1|apply Hup].
Qed.

Lemma idx_head_not_close x rest : idxP x -> hd_is "]" (pp slot_Subscript_slice x ++ rest) = false.
Proof.
  intros Hx. destruct x; try (apply pp_head_not_key; [apply Hx|reflexivity]).
  destruct Hx as [Qa _]. rewrite pp_slice.
  destruct lower as [y|]; [|reflexivity]. cbn [otoks]. rewrite <- !app_assoc. apply pp_head_not_key; [apply Qa|reflexivity].
Qed.

Lemma index_items_chain rest : forall t x acc, acc <> [] \/ t <> [] -> idxP x -> Forall idxP t ->
  Ev (MItems acc) (pp slot_Subscript_slice x ++ seps [PK ","] (map (pp slot_Subscript_slice) t) ++ PK "]" :: rest)
     (ETuple (rev acc ++ x :: t), PK "]" :: rest).
Proof.
  induction t as [|y t IH]; intros x acc Hsz Hx Ht.
  - cbn [map seps flat_map app]. destruct acc as [|a0 acc]; [destruct Hsz; contradiction|].
    exact (Ev_items_last (a0 :: acc) _ x (PK "]" :: rest) (idx_head_not_close x _ Hx) eq_refl (index_item_ev x "]" rest Hx (or_introl eq_refl))).
  - inversion Ht as [|? ? Hy Ht']; subst. cbn [map]. rewrite seps_cons. cbn [app].
    eapply Ev_items_more; [apply idx_head_not_close; exact Hx|apply (index_item_ev x ","); [exact Hx|right; reflexivity]|].
    assert (Hne : x :: acc <> [] \/ t <> []) by (left; discriminate).
    specialize (IH y (x :: acc) Hne Hy Ht'). cbn [rev] in IH. rewrite <- app_assoc in IH. exact IH.
Qed.

(* what stands between the brackets: one item, or (an index tuple with a slice among its items) the items without parentheses *)
Definition subP (s : expr) : Prop :=
  match s with
  | ETuple items => if existsb is_slice items then Forall idxP items else opP s
  | _ => idxP s
  end.

Lemma index_ev s rest : subP s -> Ev (MItems []) (index_toks s ++ PK "]" :: rest) (s, PK "]" :: rest).
Proof.
  assert (Hone : idxP s -> Ev (MItems []) (pp slot_Subscript_slice s ++ PK "]" :: rest) (s, PK "]" :: rest)).
  { intros Hx. apply (Ev_items_last [] _ s (PK "]" :: rest)); [apply idx_head_not_close; exact Hx|reflexivity|].
    apply index_item_ev; [exact Hx|left; reflexivity]. }
  intros Hs. destruct s; try exact (Hone Hs). cbn [subP index_toks] in *.
  destruct (existsb is_slice elts) eqn:Es; [|exact (Hone Hs)].
  (* the table gives the items of an index tuple the slot of a single index *)
  change slot_Subscript_tuple_item with slot_Subscript_slice.
  destruct elts as [|x t]; [discriminate Es|]. inversion Hs as [|? ? Hx Ht]; subst. cbn [map]. rewrite join_flat, <- !app_assoc.
  destruct t as [|y t].
  - (* one item: x,] *) cbn [map seps flat_map app].
    eapply Ev_items_more; [apply idx_head_not_close; exact Hx|apply index_item_ev; [exact Hx|right; reflexivity]|].
    apply Ev_now. reflexivity.
  - cbn [app]. apply (index_items_chain rest (y :: t) x []); [right; discriminate|exact Hx|exact Ht].
Qed.

Lemma A_subscript v i : opP v -> subP i -> A_stmt (Subscript v i).
Proof.
  intros Hv Hi n s rest res Hn Hs Hok Hloop. cbn [pbody node_prec] in *.
  rewrite <- app_assoc. cbn [app]. rewrite <- app_assoc. cbn [app].
  apply (left_child v slot_Subscript_value node_prec_Subscript); [exact Hv|reflexivity|reflexivity|exact Hn|].
  eapply Ev_loop_sub; [apply index_ev; exact Hi|exact Hloop].
Qed.

Definition unstar (e : expr) : expr := match e with Starred v => v | _ => e end.

(* an element: an operand, or a starred operand *)
Definition elemP (w : expr) : Prop := opP (unstar w).

Lemma elemP_core w : elemP w -> core w = true.
Proof. intros (C & N & _). destruct w; try exact C. cbn [unstar core] in *. rewrite C, N. reflexivity. Qed.

Lemma elemP_cases w : elemP w -> (exists v, w = Starred v /\ opP v) \/ (is_starred w = false /\ opP w).
Proof. intros H. destruct w; try (right; split; [reflexivity|exact H]). left. eexists. split; [reflexivity|exact H]. Qed.

Lemma starred_pp s v : pp s (Starred v) = PK "*" :: pp slot_Starred_value v.
Proof. reflexivity. Qed.

Lemma elem_closed w s k rest : elemP w -> closer k = true ->
  elem_ev (pp s w ++ PK k :: rest) w (PK k :: rest).
Proof.
  intros Hw Hk. destruct (elemP_cases w Hw) as [(v & -> & Hv)|[Es Hw']].
  - rewrite starred_pp. apply elem_star; [reflexivity|]. apply closed_own; [exact Hv|exact Hk].
  - apply elem_plain; [apply pp_head_nostar; [apply Hw'|exact Es]|]. apply closed_top; [exact Hw'|exact Hk].
Qed.

Lemma elem_head_not k w s rest : elemP w -> existsb (String.eqb k) start_keys = false -> hd_is k (pp s w ++ rest) = false.
Proof. intros Hw Hk. apply pp_head_not_key; [apply elemP_core; exact Hw|exact Hk]. Qed.

Lemma elems_chain cl s rest t : bracket cl = true ->
  forall w acc cm x, elemP w -> Forall elemP t ->
    finish cl (rev t ++ w :: acc) (cm || Nat.leb 1 (length t)) = Some x ->
    Ev (MElems cl acc cm) (pp s w ++ seps [PK ","] (map (pp s) t) ++ PK cl :: rest) (x, rest).
Proof.
  intros Hb. destruct (bracket_facts cl Hb) as (Hcl & Hne & _ & _ & Hst).
  induction t as [|w2 t IH]; intros w acc cm x Hw HF Hfin.
  - cbn [map seps flat_map app]. cbn [rev app length Nat.leb] in Hfin. rewrite orb_false_r in Hfin.
    eapply Ev_elems_last; [apply elem_head_not; assumption|apply elem_closed; assumption|exact Hne|exact Hfin].
  - inversion HF as [|? ? Hw2 HF']; subst. cbn [map]. rewrite seps_cons. cbn [app].
    eapply Ev_elems_more; [apply elem_head_not; assumption|apply elem_closed; [exact Hw|reflexivity]|].
    apply IH; [exact Hw2|exact HF'|]. cbn [rev length Nat.leb] in Hfin. rewrite <- app_assoc, orb_true_r in Hfin. exact Hfin.
Qed.

Lemma finish_tuple cl t w cm : String.eqb cl ")" && negb cm = false -> finish cl (rev t ++ [w]) cm = Some (ETuple (w :: t)).
Proof. intros H. unfold finish. rewrite H, rev_app_distr, rev_involutive. reflexivity. Qed.

Definition list_of (e : expr) : option expr :=
  match e with ETuple l => Some (EList l) | GeneratorExp x gs => Some (ListComp x gs) | _ => None end.

Lemma Ev_atom_bracket r e e' r' :
  Ev (MElems "]" [] false) r (e, r') -> list_of e = Some e' -> Ev MAtom (PK "[" :: r) (e', r').
Proof.
  intros H He. apply (Ev_step H). intros f E. pc_step. rewrite E.
  destruct e; try discriminate He; injection He as <-; reflexivity.
Qed.

Lemma A_list l : Forall elemP l -> A_stmt (EList l).
Proof.
  intros HF. apply A_atom; intros rest; [reflexivity|]. cbn [pbody app]. rewrite <- app_assoc. cbn [app].
  apply (Ev_atom_bracket _ (ETuple l)); [|reflexivity].
  destruct l as [|x t]; [apply (Ev_elems_close "]" [] false rest (ETuple [])); reflexivity|].
  inversion HF as [|? ? Hx Ht]; subst. cbn [map]. rewrite join_flat, <- app_assoc.
  apply (elems_chain "]" slot_List_elt rest); [reflexivity|exact Hx|exact Ht|apply finish_tuple; reflexivity].
Qed.

Lemma A_tuple l : Forall elemP l -> A_stmt (ETuple l).
Proof.
  intros HF. apply A_atom; intros rest; [destruct l as [|x [|y t]]; reflexivity|].
  destruct l as [|x [|y t]]; cbn [pbody map app]; apply Ev_atom_paren.
  - apply (Ev_elems_close ")" [] false rest (ETuple [])). reflexivity.
  - (* (x,) *) inversion HF as [|? ? Hx _]; subst. rewrite <- app_assoc. cbn [app].
    eapply Ev_elems_more; [apply elem_head_not; [exact Hx|reflexivity]|apply elem_closed; [exact Hx|reflexivity]|].
    apply (Ev_elems_close ")" [x] true rest (ETuple [x])). reflexivity.
  - inversion HF as [|? ? Hx Ht]; subst. rewrite join_flat, <- !app_assoc.
    apply (elems_chain ")" slot_Tuple_elt rest (y :: t)); [reflexivity|exact Hx|exact Ht|apply finish_tuple; reflexivity].
Qed.

(* `{`: a set display unless the first element is followed by a colon *)
Definition set_of (e : expr) : option expr :=
  match e with ETuple (x :: l) => Some (ESet (x :: l)) | GeneratorExp x gs => Some (SetComp x gs) | _ => None end.

Lemma Ev_atom_brace r e0 k r0 e e' r' :
  hd_is "}" r = false -> hd_is "**" r = false -> elem_ev r e0 (PK k :: r0) -> String.eqb k ":" = false ->
  Ev (MElems "}" [] false) r (e, r') -> set_of e = Some e' -> Ev MAtom (PK "{" :: r) (e', r').
Proof.
  intros H1 H2 H0 Hk H He. apply (Ev_step (ev_and H0 H)). intros f [E0 E]. pc_step. rewrite H1, H2.
  assert (G : match pc f (MElems "}" [] false) r with
              | Some (ETuple (x :: l), r') => Some (ESet (x :: l), r')
              | Some (GeneratorExp x gs, r') => Some (SetComp x gs, r')
              | _ => None
              end = Some (e', r')).
  { rewrite E. destruct e; try discriminate He; [destruct elts; [discriminate He|]|]; injection He as <-; reflexivity. }
  unfold pelem in E0. destruct (hd_is "*" r); [exact G|]. rewrite E0, Hk. exact G.
Qed.

Lemma A_set l : 1 <= length l -> Forall elemP l -> A_stmt (ESet l).
Proof.
  intros Hl HF. apply A_atom; intros rest; [reflexivity|]. destruct l as [|x t]; [cbn in Hl; lia|]. inversion HF as [|? ? Hx Ht]; subst.
  cbn [pbody app map]. rewrite <- app_assoc. cbn [app]. rewrite join_flat, <- app_assoc.
  destruct (seps_head "," (map (pp slot_Set_elt) t) "}" rest) as (k & r & E & Hk).
  eapply (Ev_atom_brace _ _ _ _ (ETuple (x :: t))); [apply elem_head_not; [exact Hx|reflexivity]|apply elem_head_not; [exact Hx|reflexivity]
                        |rewrite E; apply elem_closed; [exact Hx|destruct Hk; subst; reflexivity]
                        |destruct Hk; subst; reflexivity| |reflexivity].
  apply (elems_chain "}" slot_Set_elt rest); [reflexivity|exact Hx|exact Ht|apply finish_tuple; reflexivity].
Qed.

Definition args_after (f : nat) (acc : list expr) (kws : list (option ident * expr)) (rest : list pt) : option (expr * list pt) :=
  match rest with
  | PK s :: r =>
      if String.eqb s "," then pc f (MArgs acc kws) r
      else if String.eqb s ")" then Some (args_carrier acc kws, r) else None
  | _ => None
  end.

Definition args_cont (rest : list pt) (acc : list expr) (kws : list (option ident * expr)) (res : expr * list pt) : Prop :=
  ev (fun f => args_after f acc kws rest = Some res).

Lemma args_cont_close acc kws r : args_cont (PK ")" :: r) acc kws (args_carrier acc kws, r).
Proof. apply ev_all. reflexivity. Qed.

(* the statement has the shape of the subterm of [pstep] that, in MArgs, tells `name =` from a positional argument *)
Lemma kwstart_match {A} (ts : list pt) (kw : ident -> list pt -> A) (pos : A) : is_kwstart ts = false ->
  match ts with
  | PN k :: PK s :: r => if String.eqb s "=" then kw k r else pos
  | _ => pos
  end = pos.
Proof. destruct ts as [|[i|c|s] [|[i2|c2|s2] r2]]; try reflexivity. cbn [is_kwstart is_key]. intros ->. reflexivity. Qed.

Lemma Ev_args_dstar acc kws r v rest res :
  Ev (MExpr slot_Call_kwarg) r (v, rest) -> args_cont rest acc ((None, v) :: kws) res -> Ev (MArgs acc kws) (PK "**" :: r) res.
Proof. intros H Hc. apply (Ev_step (ev_and H Hc)). intros f [E Ec]. pc_step. rewrite E. exact Ec. Qed.

Lemma Ev_args_star acc kws r v rest res :
  Ev (MExpr slot_Starred_value) r (v, rest) -> args_cont rest (Starred v :: acc) kws res -> Ev (MArgs acc kws) (PK "*" :: r) res.
Proof. intros H Hc. apply (Ev_step (ev_and H Hc)). intros f [E Ec]. pc_step. rewrite E. exact Ec. Qed.

Lemma Ev_args_kw acc kws k r0 v rest res :
  Ev (MExpr slot_Call_kwarg) r0 (v, rest) -> args_cont rest acc ((Some k, v) :: kws) res ->
  Ev (MArgs acc kws) (PN k :: PK "=" :: r0) res.
Proof. intros H Hc. apply (Ev_step (ev_and H Hc)). intros f [E Ec]. pc_step. rewrite E. exact Ec. Qed.

(* An equation, shared by Ev_args_pos and Ev_args_gen, so that the step in this mode, a large term, is unfolded once *)
Lemma pc_args_pos f acc kws ts :
  hd_is ")" ts = false -> hd_is "**" ts = false -> hd_is "*" ts = false -> is_kwstart ts = false ->
  pstep (pc f) (MArgs acc kws) ts =
  match pc f (MExpr TOP) ts with
  | Some (a, rest) =>
      if hd_is "for" rest then
        match acc, kws with
        | [], [] =>
            match pc f (MGens []) rest with
            | Some (GeneratorExp _ gens, PK s2 :: r2) =>
                if String.eqb s2 ")" then Some (args_carrier [GeneratorExp a gens] [], r2) else None
            | _ => None
            end
        | _, _ => None
        end
      else args_after f (a :: acc) kws rest
  | None => None
  end.
Proof. intros H1 H2 H3 H4. cbv [pstep]. rewrite H1, H2, H3. apply kwstart_match. exact H4. Qed.

Lemma Ev_args_pos acc kws ts a rest res :
  hd_is ")" ts = false -> hd_is "**" ts = false -> hd_is "*" ts = false -> is_kwstart ts = false ->
  Ev (MExpr TOP) ts (a, rest) -> hd_is "for" rest = false -> args_cont rest (a :: acc) kws res -> Ev (MArgs acc kws) ts res.
Proof.
  intros H1 H2 H3 H4 H Hf Hc. apply (Ev_step (ev_and H Hc)). intros f [E Ec].
  rewrite (pc_args_pos f acc kws ts H1 H2 H3 H4), E, Hf. exact Ec.
Qed.

Lemma Ev_args_gen ts a rest fn gens r2 :
  hd_is ")" ts = false -> hd_is "**" ts = false -> hd_is "*" ts = false -> is_kwstart ts = false ->
  Ev (MExpr TOP) ts (a, rest) -> hd_is "for" rest = true ->
  Ev (MGens []) rest (GeneratorExp fn gens, PK ")" :: r2) ->
  Ev (MArgs [] []) ts (args_carrier [GeneratorExp a gens] [], r2).
Proof.
  intros H1 H2 H3 H4 H Hf Hg. apply (Ev_step (ev_and H Hg)). intros f [E Eg].
  rewrite (pc_args_pos f [] [] ts H1 H2 H3 H4), E, Hf, Eg. reflexivity.
Qed.

(* an argument as it is printed: positional in slot [s], which only the printer looks at, or a keyword item; [arg_apply] is
   what reading it does to the two lists MArgs has collected, both kept in reverse *)
Inductive arg := IPos (s : nat) (e : expr) | IKw (kw : option ident * expr).

Definition arg_toks (i : arg) : list pt := match i with IPos s e => pp s e | IKw kw => kwp kw end.

Definition arg_apply (i : arg) (st : list expr * list (option ident * expr)) : list expr * list (option ident * expr) :=
  match i with IPos _ e => (e :: fst st, snd st) | IKw kw => (fst st, kw :: snd st) end.

Definition argP (i : arg) : Prop :=
  match i with
  | IPos s e => elemP e
  | IKw kw => opP (snd kw)
  end.

Lemma arg_step i acc kws k rest res :
  argP i -> (k = "," \/ k = ")") ->
  args_cont (PK k :: rest) (fst (arg_apply i (acc, kws))) (snd (arg_apply i (acc, kws))) res ->
  Ev (MArgs acc kws) (arg_toks i ++ PK k :: rest) res.
Proof.
  intros Hi Hk Hc.
  assert (closer k = true /\ hd_is "=" (PK k :: rest) = false /\ hd_is "for" (PK k :: rest) = false) as (Hck & Heq & Hfor)
    by (destruct Hk; subst; repeat split).
  destruct i as [s e|[[kn|] v]]; cbn [arg_toks arg_apply fst snd kwp argP app] in *.
  - pose proof (elemP_core e Hi) as Hce. destruct (elemP_cases e Hi) as [(v & -> & Hv)|[Es He']].
    + rewrite starred_pp. eapply Ev_args_star; [|exact Hc].
      apply closed_own; [exact Hv|exact Hck].
    + eapply Ev_args_pos; [apply pp_head_not_key; [exact Hce|reflexivity]|apply pp_head_not_key; [exact Hce|reflexivity]
                          |apply pp_head_nostar; assumption| | | |exact Hc].
      * apply pp_nokw; [exact Hce|exact Heq].
      * apply closed_top; [exact He'|exact Hck].
      * exact Hfor.
  - eapply Ev_args_kw; [|exact Hc]. apply closed_own; [exact Hi|exact Hck].
  - eapply Ev_args_dstar; [|exact Hc]. apply closed_own; [exact Hi|exact Hck].
Qed.

(* the [fold_left] is the state of MArgs after the last argument *)
Lemma args_chain rest : forall t i acc kws, argP i -> Forall argP t ->
  Ev (MArgs acc kws) (arg_toks i ++ seps [PK ","] (map arg_toks t) ++ PK ")" :: rest)
     (args_carrier (fst (fold_left (fun st i => arg_apply i st) (i :: t) (acc, kws)))
                   (snd (fold_left (fun st i => arg_apply i st) (i :: t) (acc, kws))), rest).
Proof.
  induction t as [|i2 t IH]; intros i acc kws Hi HF.
  - cbn [map seps flat_map app fold_left]. apply arg_step; [exact Hi|right; reflexivity|]. apply args_cont_close.
  - inversion HF as [|? ? Hi2 HF']; subst. cbn [map]. rewrite seps_cons. cbn [app].
    apply arg_step; [exact Hi|left; reflexivity|].
    cbn [fold_left]. destruct (arg_apply i (acc, kws)) as [acc' kws']. exact (IH i2 acc' kws' Hi2 HF').
Qed.

Lemma fold_args s args ks : forall acc kws,
  fold_left (fun st i => arg_apply i st) (map (IPos s) args ++ map IKw ks) (acc, kws) = (rev args ++ acc, rev ks ++ kws).
Proof.
  induction args as [|a t IH]; intros acc kws; cbn [map app fold_left arg_apply fst snd rev].
  - revert kws. induction ks as [|k r IHk]; intros kws; [reflexivity|].
    cbn [map fold_left arg_apply fst snd rev]. rewrite IHk, <- app_assoc. reflexivity.
  - rewrite IH, <- app_assoc. reflexivity.
Qed.

Lemma args_ev s args kws rest : Forall elemP args -> Forall (fun kw => opP (snd kw)) kws -> args ++ map snd kws <> [] ->
  Ev (MArgs [] []) (join [PK ","] (map (pp s) args ++ map kwp kws) ++ PK ")" :: rest) (Call (Name "") args kws, rest).
Proof.
  intros Ha Hk Hne.
  replace (map (pp s) args ++ map kwp kws) with (map arg_toks (map (IPos s) args ++ map IKw kws)) by (rewrite map_app, !map_map; reflexivity).
  assert (HF : Forall argP (map (IPos s) args ++ map IKw kws)).
  { apply Forall_app. split; apply Forall_map; [exact Ha|exact Hk]. }
  destruct (map (IPos s) args ++ map IKw kws) as [|i t] eqn:E.
  - destruct args; [destruct kws; [contradiction|]|]; discriminate.
  - inversion HF as [|? ? Hi HF']; subst. cbn [map]. rewrite join_flat, <- app_assoc.
    pose proof (args_chain rest t i [] [] Hi HF') as HI. rewrite <- E, fold_args in HI.
    cbn [fst snd] in HI. rewrite !app_nil_r in HI. unfold args_carrier in HI. rewrite !rev_involutive in HI. exact HI.
Qed.

Lemma call_ev f args kws ts n rest res : opP f -> node_prec_Call <= n ->
  Ev (MArgs [] []) (ts ++ PK ")" :: rest) (Call (Name "") args kws, rest) ->
  Ev (MLoop n (Call f args kws) CNone) rest res ->
  Ev (MExpr n) ((pp slot_Call_func f ++ PK "(" :: ts ++ [PK ")"]) ++ rest) res.
Proof.
  intros Hf Hn Hargs Hloop. rewrite <- app_assoc. cbn [app]. rewrite <- app_assoc.
  apply (left_child f slot_Call_func node_prec_Call); [exact Hf|reflexivity|reflexivity|exact Hn|].
  eapply Ev_loop_call; [exact Hargs|exact Hloop].
Qed.

Lemma A_call f args kws : opP f -> Forall elemP args -> Forall (fun kw => opP (snd kw)) kws -> A_stmt (Call f args kws).
Proof.
  intros Hf Ha Hk n s rest res Hn _ _ Hloop. cbn [pbody node_prec] in *. apply (call_ev f args kws); [exact Hf|exact Hn| |exact Hloop].
  destruct args as [|x [|y t]]; destruct kws as [|k1 kt];
    try (apply args_ev; [exact Ha|exact Hk|discriminate]).
  - apply Ev_now. reflexivity.
  - apply (args_ev slot_Call_onlyarg [x] []); [exact Ha|exact Hk|discriminate].
Qed.

Lemma Ev_atom_dict_star r res :
  hd_is "}" r = false -> hd_is "**" r = true -> Ev (MDict [] []) r res -> Ev MAtom (PK "{" :: r) res.
Proof. intros H1 H2 H. apply (Ev_step H). intros f E. pc_step. rewrite H1, H2. exact E. Qed.

Lemma Ev_atom_dict_key r k r1 v s2 r2 res :
  hd_is "}" r = false -> hd_is "**" r = false -> hd_is "*" r = false ->
  Ev (MExpr TOP) r (k, PK ":" :: r1) -> Ev (MExpr TOP) r1 (v, PK s2 :: r2) -> String.eqb s2 "for" = false ->
  Ev (MDSep [Some k] [v]) (PK s2 :: r2) res -> Ev MAtom (PK "{" :: r) res.
Proof.
  intros H1 H2 H3 Hk Hv Hne H. apply (Ev_step (ev_and Hk (ev_and Hv H))). intros f (Ek & Ev' & E).
  pc_step. rewrite H1, H2, H3, Ek. pc_step. rewrite Ev', Hne. exact E.
Qed.

Lemma Ev_dict_close ks vs r : Ev (MDict ks vs) (PK "}" :: r) (EDict (rev ks) (rev vs), r).
Proof. apply Ev_now. reflexivity. Qed.

Lemma Ev_dict_star ks vs ts v r res :
  hd_is "}" ts = false -> hd_is "**" ts = true -> Ev (MExpr slot_Dict_starvalue) (tl ts) (v, r) ->
  Ev (MDSep (None :: ks) (v :: vs)) r res -> Ev (MDict ks vs) ts res.
Proof. intros H1 H2 Hv H. apply (Ev_step (ev_and Hv H)). intros f [Ev' E]. cbv [pstep]. rewrite H1, H2, Ev'. exact E. Qed.

Lemma Ev_dict_item ks vs ts k r1 v r2 res :
  hd_is "}" ts = false -> hd_is "**" ts = false -> Ev (MExpr TOP) ts (k, PK ":" :: r1) -> Ev (MExpr TOP) r1 (v, r2) ->
  Ev (MDSep (Some k :: ks) (v :: vs)) r2 res -> Ev (MDict ks vs) ts res.
Proof.
  intros H1 H2 Hk Hv H. apply (Ev_step (ev_and Hk (ev_and Hv H))). intros f (Ek & Ev' & E).
  cbv [pstep]. rewrite H1, H2, Ek. pc_step. rewrite Ev'. exact E.
Qed.

Lemma Ev_dsep_comma ks vs r res : Ev (MDict ks vs) r res -> Ev (MDSep ks vs) (PK "," :: r) res.
Proof. intros H. apply (Ev_step H). intros f E. exact E. Qed.

Definition ditem (k : option expr) (v : expr) : list pt :=
  match k with Some x => pp slot_Dict_key x ++ PK ":" :: pp slot_Dict_value v | None => PK "**" :: pp slot_Dict_starvalue v end.

Lemma ditems_some k ks v vs : ditems (Some k :: ks) (v :: vs) = (pp slot_Dict_key k ++ PK ":" :: pp slot_Dict_value v) :: ditems ks vs.
Proof. reflexivity. Qed.

Lemma ditems_none ks v vs : ditems (None :: ks) (v :: vs) = (PK "**" :: pp slot_Dict_starvalue v) :: ditems ks vs.
Proof. reflexivity. Qed.

Lemma ditems_cons k ks v vs : ditems (k :: ks) (v :: vs) = ditem k v :: ditems ks vs.
Proof. destruct k; reflexivity. Qed.

(* The first item of a display is read by MAtom, which has to tell a dict from a set; the later ones by MDict, in the same
   steps *)
Lemma dict_item_ev k v accK accV c r res :
  Po opP k -> opP v -> c = "," \/ c = "}" ->
  Ev (MDSep (k :: accK) (v :: accV)) (PK c :: r) res ->
  Ev (MDict accK accV) (ditem k v ++ PK c :: r) res /\
  (accK = [] -> accV = [] -> Ev MAtom (PK "{" :: ditem k v ++ PK c :: r) res).
Proof.
  intros Hk Hv Hc Hsep.
  assert (closer c = true /\ String.eqb c "for" = false) as [Hcl Hnf] by (destruct Hc; subst; split; reflexivity).
  destruct k as [x|]; cbn [ditem Po] in *.
  - rewrite <- app_assoc. cbn [app].
    assert (Hx : Ev (MExpr TOP) (pp slot_Dict_key x ++ PK ":" :: pp slot_Dict_value v ++ PK c :: r)
                    (x, PK ":" :: pp slot_Dict_value v ++ PK c :: r))
      by (apply closed_top; [exact Hk|reflexivity]).
    assert (Hv' : Ev (MExpr TOP) (pp slot_Dict_value v ++ PK c :: r) (v, PK c :: r))
      by (apply closed_top; [exact Hv|exact Hcl]).
    assert (Hh : forall k, existsb (String.eqb k) start_keys = false ->
                   hd_is k (pp slot_Dict_key x ++ PK ":" :: pp slot_Dict_value v ++ PK c :: r) = false)
      by (intros k; apply pp_head_not_key; apply Hk).
    split; [|intros -> ->].
    + eapply Ev_dict_item; [apply Hh; reflexivity|apply Hh; reflexivity|exact Hx|exact Hv'|exact Hsep].
    + eapply Ev_atom_dict_key; [apply Hh; reflexivity|apply Hh; reflexivity|apply pp_head_nostar; apply Hk|exact Hx|exact Hv'|exact Hnf|exact Hsep].
  - cbn [app].
    assert (Hd : Ev (MDict accK accV) (PK "**" :: pp slot_Dict_starvalue v ++ PK c :: r) res).
    { eapply Ev_dict_star; [reflexivity|reflexivity| |exact Hsep]. apply closed_own; [exact Hv|exact Hcl]. }
    split; [exact Hd|intros -> ->]. apply Ev_atom_dict_star; [reflexivity|reflexivity|exact Hd].
Qed.

Lemma dsep_chain rest : forall ks vs accK accV,
  length ks = length vs -> Forall (Po opP) ks -> Forall opP vs ->
  Ev (MDSep accK accV) (seps [PK ","] (ditems ks vs) ++ PK "}" :: rest) (EDict (rev accK ++ ks) (rev accV ++ vs), rest).
Proof.
  induction ks as [|k ks IH]; intros vs accK accV Hlen HK HV.
  - destruct vs; [|discriminate]. rewrite !app_nil_r. apply Ev_now. reflexivity.
  - destruct vs as [|v vs]; [discriminate|]. injection Hlen as Hlen.
    inversion HK as [|? ? Hk HK']; subst. inversion HV as [|? ? Hv HV']; subst.
    rewrite ditems_cons, seps_cons. apply Ev_dsep_comma.
    destruct (seps_head "," (ditems ks vs) "}" rest) as (c & r & E & Hc). rewrite E.
    apply dict_item_ev; [exact Hk|exact Hv|exact Hc|]. rewrite <- E.
    specialize (IH vs (k :: accK) (v :: accV) Hlen HK' HV'). cbn [rev] in IH. rewrite <- !app_assoc in IH. exact IH.
Qed.

Lemma A_dict ks vs : length ks = length vs -> Forall (Po opP) ks -> Forall opP vs -> A_stmt (EDict ks vs).
Proof.
  intros Hlen HK HV. apply A_atom; intros rest; [reflexivity|]. cbn [pbody app]. rewrite <- app_assoc. cbn [app].
  destruct ks as [|k ks]; destruct vs as [|v vs]; try discriminate; [apply Ev_now; reflexivity|].
  injection Hlen as Hlen. inversion HK as [|? ? Hk HK']; subst. inversion HV as [|? ? Hv HV']; subst.
  rewrite ditems_cons, join_flat, <- app_assoc.
  destruct (seps_head "," (ditems ks vs) "}" rest) as (c & r & E & Hc). rewrite E.
  apply (dict_item_ev k v [] [] c r); [exact Hk|exact Hv|exact Hc| |reflexivity|reflexivity].
  rewrite <- E. exact (dsep_chain rest ks vs [k] [v] Hlen HK' HV').
Qed.

Lemma Ev_gens_stop acc ts : hd_is "for" ts = false -> Ev (MGens acc) ts (GeneratorExp (Name "") (rev acc), ts).
Proof. intros H. apply Ev_now. intros f. cbv [pstep]. rewrite H. reflexivity. Qed.

Lemma Ev_gens_for acc r t r1 i r2 res :
  Ev (MExpr slot_Compare_left) r (t, PK "in" :: r1) -> Ev (MExpr slot_comp_iter) r1 (i, r2) ->
  Ev (MIfs t i [] acc) r2 res -> Ev (MGens acc) (PK "for" :: r) res.
Proof.
  intros H1 H2 H3. apply (Ev_step (ev_and H1 (ev_and H2 H3))). intros f (E1 & E2 & E3).
  pc_step. rewrite E1. pc_step. rewrite E2. exact E3.
Qed.

Lemma Ev_ifs_if t i ifs acc r c r' res :
  Ev (MExpr slot_comp_if) r (c, r') -> Ev (MIfs t i (c :: ifs) acc) r' res -> Ev (MIfs t i ifs acc) (PK "if" :: r) res.
Proof. intros H1 H2. apply (Ev_step (ev_and H1 H2)). intros f [E1 E2]. pc_step. rewrite E1. exact E2. Qed.

Lemma Ev_ifs_done t i ifs acc ts res :
  hd_is "if" ts = false -> Ev (MGens ((t, i, rev ifs, false) :: acc)) ts res -> Ev (MIfs t i ifs acc) ts res.
Proof. intros H H1. apply (Ev_step H1). intros f E. cbv [pstep]. rewrite H. exact E. Qed.

Definition genP (g : comprehension) : Prop :=
  match g with (t, i, ifs, a) => a = false /\ is_target t = true /\ opP t /\ opP i /\ Forall opP ifs end.

(* the iterable or a condition of a clause, followed by `if`, `for` or the closing bracket *)
Lemma comp_child e k rest : opP e -> (closer k = true \/ k = "if") ->
  Ev (MExpr slot_comp_iter) (pp slot_comp_iter e ++ PK k :: rest) (e, PK k :: rest).
Proof.
  intros He [Hk| ->].
  - apply closed_own; [exact He|exact Hk].
  - apply (left_child e slot_comp_iter slot_comp_iter); [exact He|reflexivity|apply np_le_refl|apply Nat.le_refl|].
    apply Ev_loop_stop. reflexivity.
Qed.

(* Name, Tuple and List have precedence 0 in the table *)
Lemma target_prec t : is_target t = true -> node_prec t = 0.
Proof. destruct t; try discriminate; reflexivity. Qed.

(* the target is read below comparisons, so that it stops before `in` *)
Lemma target_child t rest : opP t -> is_target t = true ->
  Ev (MExpr slot_Compare_left) (pp slot_comp_target t ++ PK "in" :: rest) (t, PK "in" :: rest).
Proof.
  intros Ht Htt. apply (child t slot_comp_target 0 slot_Compare_left); [exact Ht|reflexivity| |apply Ev_loop_stop; reflexivity].
  intros _. rewrite (target_prec t Htt). lia.
Qed.

Definition iftoks (ifs : list expr) : list pt := flat_map (fun c => PK "if" :: pp slot_comp_if c) ifs.

Lemma closer_not_if k : closer k = true -> String.eqb k "if" = false.
Proof. revert k. apply key_among. repeat constructor. Qed.

Lemma iftoks_head ifs k rest : closer k = true ->
  exists k' r, iftoks ifs ++ PK k :: rest = PK k' :: r /\ (closer k' = true \/ k' = "if").
Proof.
  intros Hk. destruct ifs as [|c t]; [exists k, rest; split; [reflexivity|left; exact Hk]|].
  unfold iftoks. rewrite flat_cons. eexists _, _. split; [reflexivity|right; reflexivity].
Qed.

Lemma ifs_chain t i acc k rest res : closer k = true ->
  forall ifs done, Forall opP ifs ->
    Ev (MGens ((t, i, rev done ++ ifs, false) :: acc)) (PK k :: rest) res ->
    Ev (MIfs t i done acc) (iftoks ifs ++ PK k :: rest) res.
Proof.
  intros Hk. induction ifs as [|c ifs IH]; intros done HF H.
  - rewrite app_nil_r in H. apply Ev_ifs_done; [exact (closer_not_if k Hk)|exact H].
  - inversion HF as [|? ? Hc HF']; subst. unfold iftoks. rewrite flat_cons. fold (iftoks ifs). cbn [app].
    destruct (iftoks_head ifs k rest Hk) as (k' & r & E & Hk').
    eapply Ev_ifs_if; [rewrite E; apply comp_child; assumption|].
    rewrite <- E. apply IH; [exact HF'|]. cbn [rev]. rewrite <- app_assoc. exact H.
Qed.

Lemma gtok_unfold t i ifs rest :
  gtok (t, i, ifs, false) ++ rest =
  PK "for" :: pp slot_comp_target t ++ PK "in" :: pp slot_comp_iter i ++ (iftoks ifs ++ rest).
Proof. unfold gtok, iftoks. cbn [app]. rewrite <- app_assoc. cbn [app]. rewrite <- app_assoc. reflexivity. Qed.

Lemma gtoks_head cl rest gs : closer cl = true -> Forall genP gs ->
  exists k r, gtoks gs ++ PK cl :: rest = PK k :: r /\ closer k = true /\ (gs <> [] -> k = "for").
Proof.
  intros Hcl HF. destruct gs as [|[[[t i] ifs] a] gs].
  - exists cl, rest. split; [reflexivity|]. split; [exact Hcl|contradiction].
  - inversion HF as [|? ? Hg _]; subst. destruct Hg as (-> & _). unfold gtoks. rewrite flat_cons, gtok_unfold. eexists _, _. repeat split.
Qed.

Lemma gens_chain cl rest : bracket cl = true ->
  forall gs acc, Forall genP gs ->
    Ev (MGens acc) (gtoks gs ++ PK cl :: rest) (GeneratorExp (Name "") (rev acc ++ gs), PK cl :: rest).
Proof.
  intros Hb. destruct (bracket_facts cl Hb) as (Hcl & _ & Hnf & _). induction gs as [|[[[t i] ifs] a] gs IH]; intros acc HF.
  - rewrite app_nil_r. apply Ev_gens_stop. exact Hnf.
  - inversion HF as [|? ? Hg HF']; subst. destruct Hg as (-> & Htt & Ht & Hi & Hifs).
    specialize (IH ((t, i, ifs, false) :: acc) HF'). cbn [rev] in IH. rewrite <- app_assoc in IH.
    unfold gtoks in *. rewrite flat_cons, gtok_unfold.
    destruct (gtoks_head cl rest gs Hcl HF') as (k & r & E & Hk & _). unfold gtoks in E. rewrite E in *.
    destruct (iftoks_head ifs k r Hk) as (k' & r' & E' & Hk').
    eapply Ev_gens_for; [apply target_child; assumption|rewrite E'; apply comp_child; assumption|].
    rewrite <- E'. apply (ifs_chain t i acc k r _ Hk ifs []); [exact Hifs|exact IH].
Qed.

Lemma comp_tail cl gs rest : bracket cl = true -> 1 <= length gs -> Forall genP gs ->
  exists r, gtoks gs ++ PK cl :: rest = PK "for" :: r /\
            Ev (MGens []) (PK "for" :: r) (GeneratorExp (Name "") gs, PK cl :: rest).
Proof.
  intros Hb Hl HF. destruct (gtoks_head cl rest gs (proj1 (bracket_facts cl Hb)) HF) as (k & r & E & _ & Hk).
  rewrite Hk in E by (destruct gs; [cbn in Hl; lia|discriminate]).
  exists r. split; [exact E|]. rewrite <- E. exact (gens_chain cl rest Hb gs [] HF).
Qed.

Lemma comp_elems cl x s gs rest : bracket cl = true -> opP x -> 1 <= length gs -> Forall genP gs ->
  Ev (MElems cl [] false) (pp s x ++ gtoks gs ++ PK cl :: rest) (GeneratorExp x gs, rest).
Proof.
  intros Hb Hx Hl HF. destruct (bracket_facts cl Hb) as (_ & _ & _ & Hn2 & Hst). destruct (comp_tail cl gs rest Hb Hl HF) as (r & -> & Hg).
  eapply Ev_elems_comp; [apply pp_head_not_key; [apply Hx|exact Hst]|apply pp_head_nostar; apply Hx|apply Hx|exact Hn2| |exact Hg].
  apply closed_top; [exact Hx|reflexivity].
Qed.

Lemma A_listcomp x gs : opP x -> 1 <= length gs -> Forall genP gs -> A_stmt (ListComp x gs).
Proof.
  intros Hx Hl HG. apply A_atom; intros rest; [reflexivity|]. cbn [pbody app]. rewrite <- !app_assoc. cbn [app].
  apply (Ev_atom_bracket _ (GeneratorExp x gs)); [|reflexivity].
  apply comp_elems; [reflexivity|exact Hx|exact Hl|exact HG].
Qed.

Lemma A_setcomp x gs : opP x -> 1 <= length gs -> Forall genP gs -> A_stmt (SetComp x gs).
Proof.
  intros Hx Hl HG. apply A_atom; intros rest; [reflexivity|]. cbn [pbody app]. rewrite <- !app_assoc. cbn [app].
  pose proof (comp_elems "}" x slot_SetComp_elt gs rest eq_refl Hx Hl HG) as Hel.
  destruct (comp_tail "}" gs rest eq_refl Hl HG) as (r & E & _). rewrite E in *.
  assert (Hfirst : elem_ev (pp slot_SetComp_elt x ++ PK "for" :: r) x (PK "for" :: r)).
  { apply elem_plain; [apply pp_head_nostar; apply Hx|]. apply closed_top; [exact Hx|reflexivity]. }
  eapply (Ev_atom_brace _ _ _ _ (GeneratorExp x gs)); [apply pp_head_not_key; [apply Hx|reflexivity]|apply pp_head_not_key; [apply Hx|reflexivity]
                        |exact Hfirst|reflexivity|exact Hel|reflexivity].
Qed.

Lemma Ev_atom_dictcomp r k r1 v r2 fn gens r3 :
  hd_is "}" r = false -> hd_is "**" r = false -> hd_is "*" r = false ->
  Ev (MExpr TOP) r (k, PK ":" :: r1) -> Ev (MExpr TOP) r1 (v, PK "for" :: r2) ->
  Ev (MGens []) (PK "for" :: r2) (GeneratorExp fn gens, PK "}" :: r3) -> Ev MAtom (PK "{" :: r) (DictComp k v gens, r3).
Proof.
  intros H1 H2 H3 Hk Hv H. apply (Ev_step (ev_and Hk (ev_and Hv H))). intros f (Ek & Ev' & E).
  pc_step. rewrite H1, H2, H3, Ek. pc_step. rewrite Ev'. pc_step. rewrite E. pc_step. reflexivity.
Qed.

Lemma A_dictcomp k v gs : opP k -> opP v -> 1 <= length gs -> Forall genP gs -> A_stmt (DictComp k v gs).
Proof.
  intros Hk Hv Hl HG. apply A_atom; intros rest; [reflexivity|]. cbn [pbody app]. rewrite <- !app_assoc. cbn [app]. rewrite <- !app_assoc. cbn [app].
  destruct (comp_tail "}" gs rest eq_refl Hl HG) as (r & -> & Hg).
  eapply Ev_atom_dictcomp; [apply pp_head_not_key; [apply Hk|reflexivity]|apply pp_head_not_key; [apply Hk|reflexivity]
                           |apply pp_head_nostar; apply Hk| | |exact Hg].
  - apply closed_top; [exact Hk|reflexivity].
  - apply closed_top; [exact Hv|reflexivity].
Qed.

(* a generator expression is read back in the two positions where it is printed: inside parentheses of its own, and bare as
   the only argument of a call *)
Definition gen_stmt (e : expr) : Prop :=
  (forall rest, Ev (MElems ")" [] false) (pbody e ++ PK ")" :: rest) (e, rest)) /\
  (forall rest, Ev (MArgs [] []) (pbody e ++ PK ")" :: rest) (args_carrier [e] [], rest)).

Lemma gen_all x gs : opP x -> 1 <= length gs -> Forall genP gs -> gen_stmt (GeneratorExp x gs).
Proof.
  intros Hx Hl HG. split; intros rest; cbn [pbody]; rewrite <- app_assoc.
  - apply comp_elems; [reflexivity|exact Hx|exact Hl|exact HG].
  - destruct (comp_tail ")" gs rest eq_refl Hl HG) as (r & -> & Hg). destruct Hx as (C & N & A).
    eapply (Ev_args_gen _ x (PK "for" :: r)); [apply pp_head_not_key; [exact C|reflexivity]|apply pp_head_not_key; [exact C|reflexivity]
                        |apply pp_head_nostar; assumption|apply pp_nokw; [exact C|reflexivity]| |reflexivity|exact Hg].
    apply closed_top; [exact (conj C (conj N A))|reflexivity].
Qed.

Lemma A_call_gen f x gs : opP f -> gen_stmt (GeneratorExp x gs) -> A_stmt (Call f [GeneratorExp x gs] []).
Proof.
  intros Hf [_ Hg] n s rest res Hn _ _ Hloop. cbn [node_prec] in *.
  apply (call_ev f [GeneratorExp x gs] []); [exact Hf|exact Hn|apply Hg|exact Hloop].
Qed.

Lemma Ev_params_body n st r b r' res :
  Ev (MExpr slot_Lambda_body) r (b, r') -> Ev (MLoop n (p_lambda st b) CNone) r' res -> Ev (MParams n st) (PK ":" :: r) res.
Proof. intros H1 H2. apply (Ev_step (ev_and H1 H2)). intros f [E1 E2]. pc_step. rewrite E1. exact E2. Qed.

Definition imap {A B} (f : A -> B) (i : pitem A) : pitem B :=
  match i with IName x d => IName x (option_map f d) | ISlash => ISlash | IStar v => IStar v | IDStar k => IDStar k end.

Lemma zipd_map {A B} (f : A -> B) : forall names nd de, zipd names nd (map f de) = map (imap f) (zipd names nd de).
Proof.
  induction names as [|x r IH]; intros nd de; [reflexivity|]. cbn [zipd]. destruct nd as [|k].
  - destruct de as [|d de']; cbn [map]; [rewrite <- (IH 0 []); reflexivity|rewrite IH; reflexivity].
  - rewrite IH. reflexivity.
Qed.

Lemma zipk_map {A B} (f : A -> B) : forall ko kd, zipk ko (map (option_map f) kd) = map (imap f) (zipk ko kd).
Proof.
  induction ko as [|k r IH]; intros kd; [destruct kd; reflexivity|]. destruct kd as [|d kd']; cbn [zipk map].
  - rewrite <- (IH []). reflexivity.
  - rewrite IH. reflexivity.
Qed.

Lemma litems_map {A B} (f : A -> B) po ar va ko kw de kd :
  litems po ar va ko kw (map f de) (map (option_map f) kd) = map (imap f) (litems po ar va ko kw de kd).
Proof.
  unfold litems. rewrite map_length, zipd_map, zipk_map.
  rewrite !map_app. f_equal; [|f_equal; [destruct va; [reflexivity|destruct ko; reflexivity]|f_equal; destruct kw; reflexivity]].
  destruct po; [reflexivity|]. rewrite map_app, firstn_map. cbn [map]. rewrite skipn_map. reflexivity.
Qed.

Definition itoks_e (i : pitem expr) : list pt := itoks_l (imap (pp slot_Lambda_default) i).

Definition consume (st : pst) (i : pitem expr) : pst :=
  match i with
  | IName x d => p_name st x d
  | ISlash => p_slash st
  | IStar v => p_star st v
  | IDStar k => p_dstar st k
  end.

Definition pitemP (i : pitem expr) : Prop := match i with IName _ (Some d) => opP d | _ => True end.

(* what follows a parameter: a comma and more parameters, or the colon *)
Definition pcont (n : nat) (st : pst) (rest : list pt) (res : expr * list pt) : Prop :=
  ev (fun f => match rest with
               | PK s :: r => if String.eqb s "," then pc f (MParams n st) r else if String.eqb s ":" then pc f (MParams n st) rest else None
               | _ => None
               end = Some res).

Lemma pitem_step n st i k r res : pitemP i -> closer k = true ->
  pcont n (consume st i) (PK k :: r) res -> Ev (MParams n st) (itoks_e i ++ PK k :: r) res.
Proof.
  intros Hi Hcl H. destruct (closer_facts k Hcl) as (_ & Heq & _).
  destruct i as [x [d|]| |[v|]|k0]; cbn [itoks_e itoks_l imap option_map consume app pitemP] in *;
    try (apply (Ev_step H); intros f E; pc_step; rewrite ?Heq; exact E).
  (* a default: its value is read first *)
  assert (Hd : Ev (MExpr slot_Lambda_default) (pp slot_Lambda_default d ++ PK k :: r) (d, PK k :: r))
    by (apply closed_own; [exact Hi|exact Hcl]).
  apply (Ev_step (ev_and Hd H)). intros f [Ed E]. pc_step. rewrite Ed. exact E.
Qed.

Lemma params_chain n tail res items st :
  Forall pitemP items -> Ev (MParams n (fold_left consume items st)) (PK ":" :: tail) res ->
  Ev (MParams n st) (join [PK ","] (map itoks_e items) ++ PK ":" :: tail) res.
Proof.
  destruct items as [|i t]; intros HF H; [exact H|]. inversion HF as [|? ? Hi Ht]; subst. clear HF.
  cbn [map]. rewrite join_flat, <- app_assoc. revert i st Hi H.
  induction t as [|i2 t IH]; intros i st Hi H.
  - apply pitem_step; [exact Hi|reflexivity|exact H].
  - inversion Ht as [|? ? Hi2 Ht']; subst. cbn [map]. rewrite seps_cons. cbn [app].
    apply pitem_step; [exact Hi|reflexivity|exact (IH Ht' i2 _ Hi2 H)].
Qed.

Definition somes {D} (ds : list (option D)) : list D := flat_map (fun d => match d with Some x => [x] | None => [] end) ds.

Lemma zipd_zipk {D} : forall names nd (de : list D), zipd names nd de = zipk names (repeat None nd ++ map Some de).
Proof.
  induction names as [|x r IH]; intros nd de; [reflexivity|].
  destruct nd as [|k]; [destruct de as [|d de']|]; cbn [zipd zipk repeat map app]; rewrite IH; reflexivity.
Qed.

Lemma somes_defaults {D} nd (de : list D) : somes (repeat None nd ++ map Some de) = de.
Proof.
  induction nd as [|k IH]; [|exact IH]. induction de as [|d r IH]; [reflexivity|].
  cbn [repeat app map somes flat_map] in *. f_equal. exact IH.
Qed.

(* names with their optional defaults: before the star they are positional, after it keyword-only *)
Lemma consume_names : forall xs ds st, length ds = length xs ->
  fold_left consume (zipk xs ds) st =
  if q_star st
  then mkP (q_po st) (q_ar st) (q_va st) true (rev xs ++ q_ko st) (rev ds ++ q_kd st) (q_kw st) (q_de st)
  else mkP (q_po st) (rev xs ++ q_ar st) (q_va st) false (q_ko st) (q_kd st) (q_kw st) (rev (somes ds) ++ q_de st).
Proof.
  induction xs as [|x r IH]; intros ds st Hl; destruct ds as [|d ds']; try discriminate Hl.
  - destruct st as [? ? ? []]; reflexivity.
  - injection Hl as Hl. cbn [zipk fold_left consume]. rewrite (IH _ _ Hl). unfold p_name.
    destruct (q_star st); cbn [q_po q_ar q_va q_star q_ko q_kd q_kw q_de somes flat_map app rev];
      [|destruct d; cbn [app rev]]; rewrite <- !app_assoc; reflexivity.
Qed.

(* the slash after the first [length po] of the positional names makes these positional-only *)
Lemma consume_slash : forall po ar ds st, q_star st = false -> length ds = length (po ++ ar) ->
  fold_left consume (firstn (length po) (zipk (po ++ ar) ds) ++ ISlash :: skipn (length po) (zipk (po ++ ar) ds)) st =
  mkP (rev (q_ar st) ++ po) (rev ar) (q_va st) false (q_ko st) (q_kd st) (q_kw st) (rev (somes ds) ++ q_de st).
Proof.
  induction po as [|x po IH]; intros ar ds st Hs Hl.
  - cbn [length firstn skipn app fold_left consume]. rewrite (consume_names _ _ _ Hl). unfold p_slash.
    cbn [q_po q_ar q_va q_star q_ko q_kd q_kw q_de]. rewrite Hs, !app_nil_r. reflexivity.
  - destruct ds as [|d ds']; [discriminate Hl|]. injection Hl as Hl.
    cbn [length firstn skipn app zipk fold_left consume]. unfold p_name. rewrite Hs.
    rewrite IH; [|reflexivity|exact Hl]. cbn [q_po q_ar q_va q_star q_ko q_kd q_kw q_de].
    destruct d; cbn [somes flat_map app rev]; rewrite <- !app_assoc; reflexivity.
Qed.

Lemma params_final po ar va ko kd kw de body :
  length de <= length (po ++ ar) -> length kd = length ko ->
  p_lambda (fold_left consume (litems po ar va ko kw de kd) pst0) body = Lambda po ar va ko kd kw de body.
Proof.
  intros Hde Hkd. unfold litems. rewrite zipd_zipk. set (Z := zipk _ _).
  assert (Hpos : fold_left consume (match po with [] => Z | _ :: _ => firstn (length po) Z ++ ISlash :: skipn (length po) Z end) pst0
                 = mkP po (rev ar) None false [] [] None (rev de)).
  { (* without positional-only names the slash changes nothing *)
    transitivity (fold_left consume (firstn (length po) Z ++ ISlash :: skipn (length po) Z) pst0); [destruct po; reflexivity|].
    subst Z. rewrite consume_slash; [|reflexivity|rewrite app_length, repeat_length, map_length; lia].
    rewrite somes_defaults, app_nil_r. reflexivity. }
  rewrite !fold_left_app, Hpos. clear Hpos Z.
  (* keyword-only names after a star, then ** *)
  assert (Hk : forall v, fold_left consume (zipk ko kd) (mkP po (rev ar) v true [] [] None (rev de))
                         = mkP po (rev ar) v true (rev ko) (rev kd) None (rev de)).
  { intros v. rewrite (consume_names _ _ _ Hkd). cbn [q_po q_ar q_va q_star q_ko q_kd q_kw q_de]. rewrite !app_nil_r. reflexivity. }
  assert (Hend : forall v s, p_lambda (fold_left consume (match kw with Some k => [IDStar k] | None => [] end)
                                         (mkP po (rev ar) v s (rev ko) (rev kd) None (rev de))) body
                             = Lambda po ar v ko kd kw de body).
  { intros v s. destruct kw; cbn [fold_left consume]; unfold p_lambda, p_dstar; cbn [q_po q_ar q_va q_ko q_kd q_kw q_de];
      rewrite !rev_involutive; reflexivity. }
  destruct va as [v|]; [cbn [fold_left consume]; unfold p_star; cbn [q_po q_ar q_va q_star q_ko q_kd q_kw q_de]; rewrite Hk; apply Hend|].
  destruct ko as [|k0 kr] eqn:Eko.
  - destruct kd; [|discriminate]. apply (Hend None false).
  - rewrite <- Eko in *. cbn [fold_left consume]. unfold p_star. cbn [q_po q_ar q_va q_star q_ko q_kd q_kw q_de]. rewrite Hk. apply Hend.
Qed.

Lemma litems_itemP po ar va ko kw de kd : Forall opP de -> Forall (Po opP) kd -> Forall pitemP (litems po ar va ko kw de kd).
Proof.
  assert (HK : forall ko kd, Forall (Po opP) kd -> Forall pitemP (zipk ko kd)).
  { induction ko0 as [|k r IH]; intros kd0 HF; [destruct kd0; constructor|]. destruct kd0 as [|d kd']; cbn [zipk].
    - constructor; [exact I|apply IH; constructor].
    - inversion HF as [|? ? Hd HF']; subst. constructor; [destruct d; [exact Hd|exact I]|apply IH; exact HF']. }
  intros Hd Hk. unfold litems. rewrite zipd_zipk. repeat (apply Forall_app; split).
  - assert (HZ : Forall pitemP (zipk (po ++ ar) (repeat None (length (po ++ ar) - length de) ++ map Some de))).
    { apply HK, Forall_app. split; [apply Forall_forall; intros o Ho; apply repeat_spec in Ho; subst o; exact I|apply Forall_map; exact Hd]. }
    destruct po; [exact HZ|]. rewrite <- (firstn_skipn (length (i :: po)) (zipk _ _)) in HZ. apply Forall_app in HZ as [H1 H2].
    apply Forall_app. split; [exact H1|constructor; [exact I|exact H2]].
  - destruct va; [repeat constructor|destruct ko; repeat constructor].
  - apply HK. exact Hk.
  - destruct kw; repeat constructor.
Qed.

Lemma A_lambda po ar va ko kd kw de b :
  opP b -> length de <= length (po ++ ar) -> length kd = length ko -> Forall opP de -> Forall (Po opP) kd ->
  A_stmt (Lambda po ar va ko kd kw de b).
Proof.
  intros Hb Hld Hlk Hde Hkd n s rest res Hn Hs Hok Hloop. cbn [pbody node_prec app] in *.
  (* the table gives the defaults of keyword-only parameters the slot of the other defaults *)
  change (map (fun o : option expr => match o with Some x => Some (pp slot_Lambda_kwdefault x) | None => None end) kd)
    with (map (option_map (pp slot_Lambda_default)) kd).
  rewrite litems_map, map_map, <- app_assoc. cbn [app].
  apply Ev_expr_lam; [exact Hn|]. apply params_chain; [apply litems_itemP; assumption|].
  eapply Ev_params_body; [apply (right_child DLam b s); assumption|]. rewrite params_final by assumption. exact Hloop.
Qed.

Definition ocore (o : option expr) : bool := match o with Some y => ecore y | None => true end.

Definition icore (x : expr) : bool := match x with Slice a b c => ocore a && ocore b && ocore c | _ => ecore x end.

(* convertible to the test of a clause that Parse.core and Parse.gens_core write out, which is how A_all hands its
   hypotheses on clause lists to [node_gen] *)
Definition gcore (g : comprehension) : bool :=
  match g with
  | (t, i, ifs, a) => core t && is_target t && core i && negb (is_starred i) && forallb ecore ifs && negb a
  end.

Lemma gcore_inv t i ifs a : gcore (t, i, ifs, a) = true ->
  core t = true /\ is_target t = true /\ core i = true /\ is_starred i = false /\ forallb ecore ifs = true /\ a = false.
Proof.
  cbn [gcore]. intros H. apply andb_prop in H as [H Ha]. apply andb_prop in H as [H Hifs]. apply andb_prop in H as [H Hni].
  apply andb_prop in H as [H Hci]. apply andb_prop in H as [Hct Htt]. apply negb_true_iff in Ha, Hni. repeat split; assumption.
Qed.

Definition idx_stmt (x : expr) : Prop := icore x = true -> idxP x.

(* what the induction proves of a node: the statement for the node itself; for a starred element, for its value; for a
   slice (which is not an expression on its own), for its parts; for a tuple also the statements of its items as items of
   an index (an index tuple that contains slices is not an expression of the core itself) *)
Definition node_stmt (e : expr) : Prop :=
  match e with
  | Slice _ _ _ => idx_stmt e
  | GeneratorExp _ _ => gen_core e = true -> gen_stmt e
  | ETuple items => (core e = true -> A_stmt e) /\ Forall idx_stmt items
  | Starred v => core e = true -> A_stmt v
  | _ => core e = true -> A_stmt e
  end.

Lemma node_op e : node_stmt e -> ecore e = true -> opP e.
Proof.
  intros H Hc. pose proof (ec_core e Hc) as C. pose proof (ec_nostar e Hc) as N. split; [exact C|]. split; [exact N|].
  destruct e; first [exact (H C)|exact (proj1 H C)|discriminate].
Qed.

Lemma node_opt o : Po node_stmt o -> ocore o = true -> Po opP o.
Proof. destruct o; [apply node_op|intros _ _; exact I]. Qed.

Lemma node_elem e : node_stmt e -> core e = true -> elemP e.
Proof.
  intros H C. unfold elemP. destruct (is_starred e) eqn:S.
  - destruct e; try discriminate S. exact (conj (ec_core _ C) (conj (ec_nostar _ C) (H C))).
  - replace (unstar e) with e by (destruct e; first [reflexivity|discriminate S]).
    apply node_op; [exact H|]. unfold ecore. rewrite C, S. reflexivity.
Qed.

Lemma node_idx e : node_stmt e -> idx_stmt e.
Proof. intros H Hi. destruct e; try exact (node_op _ H Hi). exact (H Hi). Qed.

Lemma node_gen g : (match g with (t, i, ifs, _) => node_stmt t /\ node_stmt i /\ Pl node_stmt ifs end) -> gcore g = true -> genP g.
Proof.
  destruct g as [[[t i] ifs] a]. intros (Pt & Pi & Pifs) Hc. apply gcore_inv in Hc as (Hct & Htt & Hci & Hni & Hifs & Ha).
  split; [exact Ha|]. split; [exact Htt|]. split; [|split].
  - apply node_op; [exact Pt|]. unfold ecore. rewrite Hct. destruct t; try discriminate; reflexivity.
  - apply node_op; [exact Pi|]. unfold ecore. rewrite Hci, Hni. reflexivity.
  - exact (Forall_guard _ _ _ _ node_op Pifs Hifs).
Qed.

Lemma core_call f args kws : core (Call f args kws) = true ->
  ecore f = true /\
  ((exists x gs, args = [GeneratorExp x gs] /\ kws = [] /\ gen_core (GeneratorExp x gs) = true) \/
   (forallb core args = true /\ forallb (fun kw => core (snd kw) && negb (is_starred (snd kw))) kws = true)).
Proof.
  cbn [core]. intros H. apply andb_prop in H as [Hf Hm]. split; [exact Hf|].
  destruct args as [|x l]; [right; apply andb_prop in Hm; exact Hm|].
  destruct x; try (right; apply andb_prop in Hm; exact Hm).
  destruct l; [destruct kws|]; try (right; apply andb_prop in Hm; exact Hm).
  left. eexists _, _. split; [reflexivity|]. split; [reflexivity|exact Hm].
Qed.

Lemma core_lambda po ar va ko kd kw de b : core (Lambda po ar va ko kd kw de b) = true ->
  ecore b = true /\ length de <= length (po ++ ar) /\ length kd = length ko /\ forallb ecore de = true /\ forallb ocore kd = true.
Proof.
  cbn [core]. intros H. apply andb_prop in H as [H Hkd]. apply andb_prop in H as [H Hde]. apply andb_prop in H as [H Hlk].
  apply andb_prop in H as [Hb Hld]. apply Nat.leb_le in Hld. apply Nat.eqb_eq in Hlk. repeat split; assumption.
Qed.

Theorem A_all : forall e, node_stmt e.
Proof.
  induction e as [i | c | vs IHvs | v conv spec IHv IHspec | v IHv | l o r IHl IHr | o vs IHvs | o v IHv | l IHl | l IHl | l IHl
                 | ks vs IHks IHvs | l ops cs IHl IHcs | v a IHv | v s IHv IHs | a b c IHa IHb IHc | f args kws IHf IHargs IHkws
                 | t v IHv | po ar va ko kd kw de body IHkd IHde IHbody | x gs IHx IHgs | x gs IHx IHgs | x gs IHx IHgs
                 | k v gs IHk IHv IHgs | t b o IHt IHb IHo | v IHv | v IHv | v IHv | k] using expr_ind';
    cbn [node_stmt]; try (intros Hc; discriminate Hc).
  - (* Name *) intros _. apply A_name.
  - (* Constant *) intros _. apply A_const.
  - (* Starred: the statement is about its value *) intros Hc. apply (node_op v IHv Hc).
  - (* BinOp *) intros Hc. cbn [core] in Hc. apply andb_prop in Hc as [H1 H2]. apply A_binop; apply node_op; assumption.
  - (* BoolOp *) intros Hc. cbn [core] in Hc. apply andb_prop in Hc as [Hl Hc].
    apply A_boolop; [apply Nat.leb_le; exact Hl|exact (Forall_guard _ _ _ _ node_op IHvs Hc)].
  - (* UnaryOp *) intros Hc. apply A_unop. apply node_op; assumption.
  - (* EList *) intros Hc. apply A_list. exact (Forall_guard _ _ _ _ node_elem IHl Hc).
  - (* ETuple *) split; [|exact (Forall_impl _ node_idx IHl)].
    intros Hc. apply A_tuple. exact (Forall_guard _ _ _ _ node_elem IHl Hc).
  - (* ESet *) intros Hc. cbn [core] in Hc. apply andb_prop in Hc as [Hl Hc].
    apply A_set; [apply Nat.leb_le; exact Hl|exact (Forall_guard _ _ _ _ node_elem IHl Hc)].
  - (* EDict *) intros Hc. cbn [core] in Hc. apply andb_prop in Hc as [Hc Hvs]. apply andb_prop in Hc as [Hlen Hks].
    apply A_dict; [apply Nat.eqb_eq; exact Hlen|exact (Forall_guard _ _ _ _ node_opt IHks Hks)|exact (Forall_guard _ _ _ _ node_op IHvs Hvs)].
  - (* Compare *) intros Hc. apply core_compare in Hc as (Hl & Hlen & H1 & Hcs).
    apply A_compare; [apply node_op; assumption|exact (Forall_guard _ _ _ _ node_op IHcs Hcs)|exact Hlen|exact H1].
  - (* Attribute *) intros Hc. apply A_attribute. apply node_op; assumption.
  - (* Subscript *) intros Hc. cbn [core] in Hc. apply andb_prop in Hc as [Hv Hs]. apply A_subscript; [apply node_op; assumption|].
    destruct s; try exact (node_op _ IHs Hs).
    + (* an index tuple: with a slice among its items it is printed bare *)
      cbn [subP]. destruct (existsb is_slice elts); [|exact (node_op _ IHs Hs)].
      exact (Forall_guard _ _ _ _ (fun x (P : idx_stmt x) Hx => P Hx) (proj2 IHs) Hs).
    + exact (IHs Hs).
  - (* Slice: its parts *) intros Hc. cbn [icore] in Hc. apply andb_prop in Hc as [Hc Hcc]. apply andb_prop in Hc as [Ha Hb].
    split; [|split]; apply node_opt; assumption.
  - (* Call *) intros Hc. apply core_call in Hc as [Hf [(x & gs & -> & -> & Hg)|[Ha Hk]]].
    + inversion IHargs as [|? ? Hgen _]; subst. apply A_call_gen; [apply node_op; assumption|exact (Hgen Hg)].
    + apply A_call; [apply node_op; assumption|exact (Forall_guard _ _ _ _ node_elem IHargs Ha)|].
      exact (Forall_guard _ _ _ _ (fun kw => node_op (snd kw)) IHkws Hk).
  - (* NamedExpr *) intros Hc. apply A_named. apply node_op; assumption.
  - (* Lambda *) intros Hc. apply core_lambda in Hc as (Hb & Hld & Hlk & Hde & Hkd).
    apply A_lambda; [apply node_op; assumption|exact Hld|exact Hlk
                    |exact (Forall_guard _ _ _ _ node_op IHde Hde)|exact (Forall_guard _ _ _ _ node_opt IHkd Hkd)].
  - (* ListComp *) intros Hc. cbn [core] in Hc. apply andb_prop in Hc as [Hc Hgs]. apply andb_prop in Hc as [Hx Hl].
    apply A_listcomp; [apply node_op; assumption|apply Nat.leb_le; exact Hl|exact (Forall_guard _ _ _ _ node_gen IHgs Hgs)].
  - (* SetComp *) intros Hc. cbn [core] in Hc. apply andb_prop in Hc as [Hc Hgs]. apply andb_prop in Hc as [Hx Hl].
    apply A_setcomp; [apply node_op; assumption|apply Nat.leb_le; exact Hl|exact (Forall_guard _ _ _ _ node_gen IHgs Hgs)].
  - (* GeneratorExp *) intros Hc. unfold gen_core, gens_core in Hc. apply andb_prop in Hc as [Hc Hgs]. apply andb_prop in Hc as [Hx Hl].
    apply gen_all; [apply node_op; assumption|apply Nat.leb_le; exact Hl|exact (Forall_guard _ _ _ _ node_gen IHgs Hgs)].
  - (* DictComp *) intros Hc. cbn [core] in Hc. apply andb_prop in Hc as [Hc Hgs]. apply andb_prop in Hc as [Hc Hl].
    apply andb_prop in Hc as [Hk Hv].
    apply A_dictcomp; [apply node_op; assumption|apply node_op; assumption|apply Nat.leb_le; exact Hl|exact (Forall_guard _ _ _ _ node_gen IHgs Hgs)].
  - (* IfExp *) intros Hc. cbn [core] in Hc. apply andb_prop in Hc as [Hc H3]. apply andb_prop in Hc as [H1 H2].
    apply A_ifexp; apply node_op; assumption.
Qed.

(* C03_roundtrip_core_partial, through roundtrip_core_top below *)
Theorem roundtrip_core : forall e, core e = true -> is_starred e = false ->
  exists f0, forall f, f0 <= f -> pc f (MExpr slot_top) (pp slot_top e) = Some (e, []).
Proof.
  intros e Hc Hns. rewrite <- (app_nil_r (pp slot_top e)).
  apply (child e slot_top slot_top slot_top [] (e, [])); [|reflexivity|intros H; split; exact H|apply Ev_loop_stop; reflexivity].
  apply (node_op e (A_all e)). unfold ecore. rewrite Hc, Hns. reflexivity.
Qed.

(* a generator expression as a whole expression: (x for x in y) *)
Theorem roundtrip_gen : forall e, gen_core e = true ->
  exists f0, forall f, f0 <= f -> pc f (MExpr slot_top) (pp slot_top e) = Some (e, []).
Proof.
  intros e Hc. assert (Hx : exists x gs, e = GeneratorExp x gs) by (destruct e; try discriminate Hc; eexists _, _; reflexivity).
  destruct Hx as (x & gs & ->). destruct (A_all (GeneratorExp x gs) Hc) as [Hpar _].
  change (pp slot_top (GeneratorExp x gs)) with (PK "(" :: pbody (GeneratorExp x gs) ++ PK ")" :: []).
  eapply Ev_expr_atom; [reflexivity|apply Ev_atom_paren; apply Hpar|apply Ev_loop_stop; reflexivity].
Qed.

Theorem roundtrip_core_top : forall e, core_top e = true ->
  exists f0, forall f, f0 <= f -> pc f (MExpr slot_top) (pp slot_top e) = Some (e, []).
Proof.
  intros e H. apply orb_prop in H as [H|H]; [|apply roundtrip_gen; exact H].
  apply andb_prop in H as [Hc Hs]. apply negb_true_iff in Hs. apply roundtrip_core; assumption.
Qed.
