(* C17: a long if / elif / ... / else chain.

   Python's own tree of such a chain nests one `If` per branch (the `orelse` of a branch holds the next branch), so the
   source itself is n levels deep.  Theorems, for EVERY number n of branches:
     - if_style = short_circuit (list wrapper): the whole chain is ONE flat `or` of n `and` pairs - height 6, however long
       the chain is (pending_nodes.py: "a long elif chain stays flat");
     - if_style = if_expr: one conditional expression per branch, nested in the else position - height n + 2 (probes are calls), i.e. the
       nesting of the source plus a constant (no amplification). *)
From Coq Require Import String List ZArith Bool Arith Lia.
From OL Require Import PyAst Namespace Lower KSem KSim Depth.
Import ListNotations.
Local Open Scope string_scope.
Local Open Scope list_scope.

Definition cfg_short_list : config := mkCfg false true false.

Fixpoint elif_chain (n : nat) : list stmt :=
  match n with
  | 0 => [SExpr (probe "m" 0)]
  | S k => [SIf (probe "c" 0) [SExpr (probe "m" 0)] (elif_chain k)]
  end.

(* = n + 1: the nesting of If nodes in [elif_chain n], written as a function of n *)
Fixpoint stmt_nest (n : nat) : nat := match n with 0 => 1 | S k => S (stmt_nest k) end.

Fixpoint elif_out (cfg : config) (n : nat) : expr :=
  match n with
  | 0 => probe "m" 0
  | S k => if_result cfg false (probe "c" 0) [probe "m" 0] [elif_out cfg k]
  end.

Lemma lower_elif cfg c : transparent (c_nsp c) -> forall n p br i,
  lower_block cfg (fun c0 p0 s0 => lower_stmt cfg c0 p0 s0) c p br i (elif_chain n) = inl [elif_out cfg n].
Proof.
  intros Ht. induction n as [|n IH]; intros p br i; [exact (lower_marks cfg c Ht 1 p br i)|].
  cbn [elif_chain lower_block lower_stmt]. rewrite IH, !tr_probe by exact Ht. reflexivity.
Qed.

Lemma elif_not_visited f : (forall e, f (SExpr e) = false) -> (forall t b o, f (SIf t b o) = false) ->
  forall n, Forall (fun s => visits f s = false) (elif_chain n).
Proof.
  intros Hf Hi. induction n as [|n IH]; cbn [elif_chain]; (constructor; [|constructor]); cbn [visits].
  - rewrite Hf. reflexivity.
  - rewrite Hi, (ex_live_false _ _ IH). cbn [ex_live visits is_interrupt]. rewrite Hf. reflexivity.
Qed.

Lemma lower_module_elif cfg n : lower_module cfg top_symtab (elif_chain n) = inl (elif_out cfg n).
Proof.
  destruct (module_nsp (cfg_host_lt_312 cfg)) as (g & Hg & Hk & _).
  rewrite (lower_module_eq cfg _ g _ [elif_out cfg n] Hg); [|apply lower_elif, global_transparent, Hk].
  unfold prelude. rewrite !existsb_false by (apply elif_not_visited; reflexivity). reflexivity.
Qed.

(* short-circuit style: the `or` of the else branch absorbs each further test *)
Definition semi : expr := BoolOp And [UnaryOp Not (UnaryOp Not (probe "c" 0)); EList [probe "m" 0]].

Lemma elif_out_short k : elif_out cfg_short_list (S k) = BoolOp Or (repeat semi (S k) ++ [probe "m" 0]).
Proof. induction k as [|k IH]; [reflexivity|]. cbn [elif_out] in *. rewrite IH. reflexivity. Qed.

Theorem elif_chain_height_short : forall n,
  exists e, lower_module cfg_short_list top_symtab (elif_chain n) = inl e /\ height e <= 6.
Proof.
  intros n. eexists. split; [apply lower_module_elif|].
  destruct n as [|k]; [vm_compute; lia|]. rewrite elif_out_short, height_BoolOp, heights_app.
  pose proof (heights_repeat semi (S k)) as H. change (height semi) with 5 in H. change (heights [probe "m" 0]) with 2. lia.
Qed.

Lemma height_elif_ifexp n : height (elif_out cfg_list n) = n + 2.
Proof.
  induction n as [|n IH]; [reflexivity|].
  change (elif_out cfg_list (S n)) with (IfExp (probe "c" 0) (probe "m" 0) (elif_out cfg_list n)).
  rewrite height_IfExp, IH. change (height (probe "c" 0)) with 2. change (height (probe "m" 0)) with 2. lia.
Qed.

Theorem elif_chain_height_ifexp : forall n,
  exists e, lower_module cfg_list top_symtab (elif_chain n) = inl e /\ height e = stmt_nest n + 1.
Proof.
  intros n. eexists. split; [apply lower_module_elif|]. rewrite height_elif_ifexp.
  induction n as [|n IH]; cbn [stmt_nest]; lia.
Qed.
