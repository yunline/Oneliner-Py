(* C06: which variable an emitted access denotes, against Python's resolution rule.

   Python (language reference 4.2.2): a name that a function scope neither binds nor declares is looked up in the
   nearest enclosing FUNCTION scope that binds it (class scopes are skipped); a scope on the way that declares it
   `global` ends the search at the module.  The converter keeps a function's variable either as a local of the lambda
   that stands for the function (bound with `:=`, or a parameter) or, when an inner namespace needs it, in the function's
   dictionary; class members live in the class dictionary; module variables are module variables. *)
From Coq Require Import String List ZArith Bool Arith.
From OL Require Import PyAst Namespace Lower.
Import ListNotations.
Local Open Scope string_scope.
Local Open Scope list_scope.

(* Python's rule on the stack of enclosing scopes (innermost first) *)
Inductive rbinding := RBinder (id : nat) | RGlobal.

Fixpoint ref_walk (stack : list anc) (x : ident) : rbinding :=
  match stack with
  | [] => RGlobal
  | a :: r =>
      match an_kind a with
      | NClass => ref_walk r x                 (* class scopes do not take part *)
      | NGlobal => RGlobal
      | NFunction =>
          match lookup_sym (an_syms a) x with
          | Some s => if sy_local s then RBinder (an_id a)
                      else if sy_declglobal s then RGlobal
                      else ref_walk r x
          | None => ref_walk r x
          end
      end
  end.

(* generate_nsp's search (find_origin) finds Python's binder: whenever it answers, the answer is the nearest enclosing
   function that binds the name - unless a scope on the way declares the name global, in which case CPython does not
   report the name as free and the search is never started *)
Theorem origin_is_nearest_binder : forall stack x j p,
  find_origin stack x = inl (j, p) -> ref_walk stack x = RBinder j \/ ref_walk stack x = RGlobal.
Proof.
  induction stack as [|a r IH]; intros x j p H; cbn [find_origin ref_walk] in *.
  - discriminate.
  - destruct (an_kind a).
    + discriminate.
    + destruct (lookup_sym (an_syms a) x) as [s|]; [|discriminate].
      destruct (sy_local s).
      * injection H as <- _. left. reflexivity.
      * destruct (sy_declglobal s); [right; reflexivity|]. eapply IH. exact H.
    + eapply IH. exact H.
Qed.

(* and conversely: when Python's rule finds a binder, the search finds the same one (or stops with the KeyError of a
   symbol table that does not mention the name, which CPython's tables never do for a free name) *)
Theorem nearest_binder_is_found : forall stack x j,
  ref_walk stack x = RBinder j ->
  (exists p, find_origin stack x = inl (j, p)) \/ find_origin stack x = inr EKey.
Proof.
  induction stack as [|a r IH]; intros x j H; cbn [find_origin ref_walk] in *.
  - discriminate.
  - destruct (an_kind a).
    + discriminate.
    + destruct (lookup_sym (an_syms a) x) as [s|]; [|right; reflexivity].
      destruct (sy_local s).
      * injection H as <-. left. eexists. reflexivity.
      * destruct (sy_declglobal s); [discriminate|]. apply IH. exact H.
    + apply IH. exact H.
Qed.

(* what an emitted access denotes *)
Inductive cell :=
| CLocal (id : nat)                 (* a local of the lambda that stands for function [id] *)
| CDict (id : nat)                  (* the entry in the dictionary of function [id] *)
| CMember (id : nat)                (* the entry in the dictionary of class [id] *)
| CModule                           (* the module variable (or builtin) *)
| CMemberElse (id : nat) (c : cell) (* class lookup: the member when present, else [c] *)
| CInner.                           (* a variable of an enclosing lambda / comprehension of the same expression *)

(* the forms get_load_name / get_assign emit *)
Inductive access :=
| APlain                            (* Name x   /  (x := v) *)
| ADict (o : nat)                   (* __ol_nonlocal_o['x'] *)
| AMember (c : nat)                 (* __ol_classnsp_c['x'] *)
| AGlobals                          (* globals()['x'] *)
| AMemberElse (c : nat) (a : access).

Fixpoint render (x : ident) (a : access) : expr :=
  match a with
  | APlain => Name x
  | ADict o => Subscript (nonlocal_dict o) (cstr x)
  | AMember c => Subscript (class_dict c) (cstr x)
  | AGlobals => globals_item x
  | AMemberElse c a' => IfExp (Compare (cstr x) [In] [class_dict c]) (Subscript (class_dict c) (cstr x)) (render x a')
  end.

(* a plain name inside nested lambdas denotes the local of the nearest enclosing function lambda that binds it (the
   lambda of a function binds the function's locals and parameters; class loaders bind no user name), else the module *)
Fixpoint name_cell (links : list link) (x : ident) : cell :=
  match links with
  | [] => CModule
  | l :: r =>
      match lk_kind l with
      | NGlobal => CModule
      | NClass => name_cell r x
      | NFunction =>
          match lookup_sym (lk_syms l) x with
          | Some s => if sy_local s then CLocal (lk_id l) else name_cell r x
          | None => name_cell r x
          end
      end
  end.

Fixpoint cell_of (links : list link) (x : ident) (a : access) : cell :=
  match a with
  | APlain => name_cell links x
  | ADict o => CDict o
  | AMember c => CMember c
  | AGlobals => CModule
  | AMemberElse c a' => CMemberElse c (cell_of links x a')
  end.

(* the decisions of namespaces.py as accesses *)
Definition global_access (n : nsp) (x : ident) : access :=
  if hidden_by_local (self_link n :: n_chain n) x then AGlobals else APlain.

Fixpoint enclosing_access (n : nsp) (links : list link) (x : ident) : access :=
  match links with
  | [] => global_access n x
  | l :: r =>
      match lk_kind l with
      | NGlobal => global_access n x
      | NClass => enclosing_access n r x
      | NFunction =>
          match lookup_sym (lk_syms l) x with
          | None => enclosing_access n r x
          | Some s =>
              if sy_local s then (if mem x (lk_inner_nonlocal l) then ADict (lk_id l) else APlain)
              else match assoc_nat x (lk_outer_map l) with
                   | Some o => ADict o
                   | None => global_access n x
                   end
          end
      end
  end.

Lemma get_load_global_render n x : get_load_global n x = render x (global_access n x).
Proof. unfold get_load_global, global_access. destruct (hidden_by_local _ _); reflexivity. Qed.

Lemma load_from_enclosing_render n : forall links x, load_from_enclosing n links x = render x (enclosing_access n links x).
Proof.
  induction links as [|l r IH]; intros x; cbn [load_from_enclosing enclosing_access].
  - apply get_load_global_render.
  - destruct (lk_kind l); [apply get_load_global_render| |apply IH].
    destruct (lookup_sym (lk_syms l) x) as [s|]; [|apply IH].
    destruct (sy_local s).
    + destruct (mem x (lk_inner_nonlocal l)); reflexivity.
    + destruct (assoc_nat x (lk_outer_map l)); [reflexivity|apply get_load_global_render].
Qed.

(* module names stay module names: the access get_load_global emits denotes the module variable - a plain
   name only when no lambda of an enclosing function binds that name *)
Theorem global_load_is_module : forall n x,
  cell_of (self_link n :: n_chain n) x (global_access n x) = CModule.
Proof.
  intros n x. unfold global_access. generalize (self_link n :: n_chain n) as links.
  intros links. destruct (hidden_by_local links x) eqn:E; [reflexivity|]. cbn [cell_of].
  induction links as [|l r IH]; [reflexivity|]. cbn [hidden_by_local name_cell] in *.
  destruct (lk_kind l); [reflexivity| |apply IH; exact E].
  destruct (lookup_sym (lk_syms l) x) as [s|]; [|apply IH; exact E].
  destruct (sy_local s); [discriminate|apply IH; exact E].
Qed.

Definition no_member (a : access) : Prop :=
  match a with AMember _ | AMemberElse _ _ => False | _ => True end.

(* class members are invisible from lambda / comprehension bodies: the access emitted for a name inside such a body in a
   class never goes to a class dictionary *)
Theorem class_inner_never_member : forall n links x, no_member (enclosing_access n links x).
Proof.
  intros n. assert (G : forall x, no_member (global_access n x)).
  { intros x. unfold global_access. destruct (hidden_by_local _ _); exact I. }
  induction links as [|l r IH]; intros x; cbn [enclosing_access]; [apply G|].
  destruct (lk_kind l); [apply G| |apply IH].
  destruct (lookup_sym (lk_syms l) x) as [s|]; [|apply IH].
  destruct (sy_local s).
  - destruct (mem x (lk_inner_nonlocal l)); exact I.
  - destruct (assoc_nat x (lk_outer_map l)); [exact I|apply G].
Qed.

Definition link_anc (l : link) : anc := mkAnc (lk_id l) (lk_kind l) (lk_syms l).

Definition maps_ok (links : list link) (x : ident) : Prop :=
  forall pre l post, links = pre ++ l :: post -> lk_kind l = NFunction ->
    forall s, lookup_sym (lk_syms l) x = Some s -> sy_local s = false ->
      ref_walk (map link_anc (l :: post)) x =
        match assoc_nat x (lk_outer_map l) with Some o => RBinder o | None => RGlobal end.

(* the lookup from inside a class body follows Python's rule: when the outer map of every enclosing function says what
   Python's walk from that function says ([maps_ok]), the access emitted for a name in a lambda / comprehension body of a
   class denotes the variable of the nearest enclosing function that binds the name - through that function's dictionary
   or as the local of its lambda - and the module variable when there is none *)
Theorem enclosing_load_follows_python : forall n links x,
  maps_ok links x ->
  match ref_walk (map link_anc links) x with
  | RBinder j => enclosing_access n links x = ADict j \/ (enclosing_access n links x = APlain /\ name_cell links x = CLocal j)
  | RGlobal => enclosing_access n links x = global_access n x
  end.
Proof.
  intros n. induction links as [|l r IH]; intros x Hm; [reflexivity|].
  assert (Hr : maps_ok r x).
  { intros pre l' post E. apply (Hm (l :: pre) l' post). rewrite E. reflexivity. }
  specialize (IH x Hr). specialize (Hm [] l r eq_refl).
  (* [Hm] is now what maps_ok says of the first link: the case analysis acts on it as well *)
  cbn [map ref_walk enclosing_access name_cell link_anc an_kind an_syms an_id] in Hm |- *.
  destruct (lk_kind l) in Hm |- *; [reflexivity| |exact IH].
  destruct (lookup_sym (lk_syms l) x) as [s|] in Hm |- *; [|exact IH].
  destruct (sy_local s) eqn:Es in Hm |- *.
  - destruct (mem x (lk_inner_nonlocal l)); [left; reflexivity|right; split; reflexivity].
  - rewrite (Hm eq_refl s eq_refl Es). destruct (assoc_nat x (lk_outer_map l)); [left|]; reflexivity.
Qed.

(* where get_assign stores a name; None is the KeyError of a name the symbol table does not mention *)
Definition store_access (n : nsp) (x : ident) : option access :=
  match n_kind n with
  | NGlobal => Some APlain
  | NFunction =>
      match lookup_sym (n_syms n) x with
      | None => None
      | Some s =>
          if sy_declglobal s then Some AGlobals
          else match assoc_nat x (n_outer_map n) with
               | Some o => Some (ADict o)
               | None => if mem x (n_inner_nonlocal n) then Some (ADict (n_id n)) else Some APlain
               end
      end
  | NClass =>
      match lookup_sym (n_syms n) x with
      | None => None
      | Some s =>
          if sy_declglobal s then Some AGlobals
          else match assoc_nat x (n_outer_map n) with
               | Some o => Some (ADict o)
               | None => Some (AMember (n_id n))
               end
      end
  end.

(* [AMemberElse] is an access of loads only: [store_access] never gives it *)
Definition store_form (x : ident) (a : access) (v : expr) : expr :=
  match a with
  | APlain => NamedExpr x v
  | ADict o => setitem (nonlocal_dict o) x v
  | AMember c => setitem (class_dict c) x v
  | AGlobals => setitem globals_call x v
  | AMemberElse _ _ => v
  end.

Lemma store_access_forms n x :
  (forall v, get_assign n x v = match store_access n x with Some a => inl (store_form x a v) | None => inr EKey end) /\
  get_load_assigned n x = match store_access n x with Some a => inl (render x a) | None => inr EKey end.
Proof.
  unfold get_assign, get_load_assigned, store_access. destruct (n_kind n); [split; reflexivity| |].
  - destruct (lookup_sym (n_syms n) x) as [s|]; [|split; reflexivity]. destruct (sy_declglobal s); [split; reflexivity|].
    destruct (assoc_nat x (n_outer_map n)); [split; reflexivity|]. destruct (mem x (n_inner_nonlocal n)); split; reflexivity.
  - destruct (lookup_sym (n_syms n) x) as [s|]; [|split; reflexivity]. destruct (sy_declglobal s); [split; reflexivity|].
    destruct (assoc_nat x (n_outer_map n)); split; reflexivity.
Qed.

Lemma get_assign_store n x v : get_assign n x v = match store_access n x with Some a => inl (store_form x a v) | None => inr EKey end.
Proof. apply store_access_forms. Qed.

Lemma get_load_assigned_store n x : get_load_assigned n x = match store_access n x with Some a => inl (render x a) | None => inr EKey end.
Proof. apply store_access_forms. Qed.

Definition load_access (n : nsp) (bd : list ident) (inn : bool) (x : ident) : access :=
  match n_kind n with
  | NGlobal => APlain
  | NFunction =>
      if mem x bd then APlain
      else if mem x (n_inner_nonlocal n) then ADict (n_id n)
      else match assoc_nat x (n_outer_map n) with
           | Some o => ADict o
           | None => match lookup_sym (n_syms n) x with
                     | Some s => if sy_local s then APlain else global_access n x
                     | None => global_access n x
                     end
           end
  | NClass =>
      if mem x bd then APlain
      else if inn then enclosing_access n (n_chain n) x
      else match lookup_sym (n_syms n) x with
           | None => global_access n x
           | Some s =>
               match assoc_nat x (n_outer_map n) with
               | Some o => ADict o
               | None => if sy_global s then global_access n x else AMemberElse (n_id n) (global_access n x)
               end
           end
  end.

Lemma get_load_name_render n bd inn x : get_load_name n bd inn x = inl (render x (load_access n bd inn x)).
Proof.
  unfold get_load_name, load_access, ret. rewrite get_load_global_render, load_from_enclosing_render.
  destruct (n_kind n); [reflexivity| |]; (destruct (mem x bd); [reflexivity|]).
  - destruct (mem x (n_inner_nonlocal n)); [reflexivity|]. destruct (assoc_nat x (n_outer_map n)); [reflexivity|].
    destruct (lookup_sym (n_syms n) x) as [s|]; [destruct (sy_local s)|]; reflexivity.
  - destruct inn; [reflexivity|]. destruct (lookup_sym (n_syms n) x) as [s|]; [|reflexivity].
    destruct (assoc_nat x (n_outer_map n)); [reflexivity|]. destruct (sy_global s); reflexivity.
Qed.

(* CPython's symbol flags are consistent: a declared global is neither local nor free; what an inner namespace takes
   from this function is local here and hence not taken from further out; a name bound here without declaration is local *)
Definition sym_ok (n : nsp) (x : ident) : bool :=
  match n_kind n with NGlobal => true | _ =>
  match lookup_sym (n_syms n) x with
  | None => true
  | Some s =>
      (if sy_declglobal s then negb (sy_local s) && negb (mem x (n_inner_nonlocal n)) &&
                               match assoc_nat x (n_outer_map n) with None => true | Some _ => false end else true) &&
      (if mem x (n_inner_nonlocal n) then sy_local s else true) &&
      (if sy_local s then match assoc_nat x (n_outer_map n) with None => true | Some _ => false end else true)
  end end.

Definition own_cell (n : nsp) (x : ident) (a : access) : cell := cell_of (self_link n :: n_chain n) x a.

(* function namespaces: for a name the function binds, the place a store writes and the place a load at function level
   reads are the same cell.  The cell of a plain store is given outright as the function's own local: [own_cell n x APlain]
   is [name_cell], which says [CLocal (n_id n)] only where [sy_local s] *)
Theorem function_load_store_agree : forall n x a s,
  n_kind n = NFunction -> sym_ok n x = true -> lookup_sym (n_syms n) x = Some s ->
  (sy_declglobal s = true \/ sy_local s = true \/ assoc_nat x (n_outer_map n) <> None) ->
  store_access n x = Some a ->
  own_cell n x (load_access n [] false x) =
    match a with APlain => CLocal (n_id n) | _ => own_cell n x a end.
Proof.
  intros n x a s Hk Hok Hl Hb Hs. unfold sym_ok in Hok. rewrite Hk, Hl in Hok.
  unfold store_access in Hs. rewrite Hk, Hl in Hs. unfold load_access. rewrite Hk. cbn [mem existsb].
  unfold own_cell.
  (* sym_ok: what holds of a declared global; a captured name is local; a local is not taken from outside *)
  apply andb_prop in Hok as [Hok H3]. apply andb_prop in Hok as [H1 H2].
  destruct (sy_declglobal s) eqn:Ed.
  - injection Hs as <-. apply andb_prop in H1 as [H1 Ho]. apply andb_prop in H1 as [Hloc Hin].
    apply negb_true_iff in Hloc, Hin. rewrite Hin.
    destruct (assoc_nat x (n_outer_map n)); [discriminate|]. rewrite Hl, Hloc.
    rewrite global_load_is_module. reflexivity.
  - destruct (assoc_nat x (n_outer_map n)) as [o|] eqn:Eo.
    + injection Hs as <-. destruct (mem x (n_inner_nonlocal n)) eqn:Ei.
      * destruct (sy_local s); discriminate.
      * reflexivity.
    + destruct (mem x (n_inner_nonlocal n)) eqn:Ei.
      * injection Hs as <-. reflexivity.
      * injection Hs as <-. destruct Hb as [Hb|[Hb|Hb]]; [discriminate| |congruence].
        rewrite Hl, Hb. cbn [cell_of name_cell self_link lk_kind lk_syms lk_id]. rewrite Hk, Hl, Hb. reflexivity.
Qed.

(* class namespaces: a class-level load of a member reads the class dictionary first - the cell a store
   writes - and the module variable until then (LOAD_NAME) *)
Theorem class_load_store_agree : forall n x s,
  n_kind n = NClass -> lookup_sym (n_syms n) x = Some s -> sy_declglobal s = false -> sy_global s = false ->
  assoc_nat x (n_outer_map n) = None ->
  store_access n x = Some (AMember (n_id n)) /\
  own_cell n x (load_access n [] false x) = CMemberElse (n_id n) CModule.
Proof.
  intros n x s Hk Hl Hd Hg Ho. unfold store_access, load_access, own_cell. rewrite Hk, Hl, Hd, Ho, Hg. cbn [mem existsb].
  split; [reflexivity|]. cbn [cell_of]. rewrite global_load_is_module. reflexivity.
Qed.

(* inner binders win: a name bound by an enclosing lambda / comprehension of the same expression is loaded as a
   plain name in every kind of namespace, and an assignment expression on it stays a plain binding *)
Theorem inner_binder_wins : forall n bd inn x, mem x bd = true -> get_load_name n bd inn x = inl (Name x).
Proof. exact get_load_name_bound. Qed.

Theorem walrus_in_lambda_is_local : forall n bd inn t v v',
  mem t bd = true -> transf n bd inn v = inl v' -> transf n bd inn (NamedExpr t v) = inl (NamedExpr t v').
Proof. intros n bd inn t v v' H Hv. cbn [transf]. rewrite Hv. cbn [rbind]. rewrite H. reflexivity. Qed.

(* the body of a lambda is transformed with its parameters and its own assignment-expression targets bound; its default
   values with the bindings of the enclosing scope only *)
Theorem lambda_scope : forall n bd inn po ar va ko kd kw de body e',
  transf n bd inn (Lambda po ar va ko kd kw de body) = inl e' ->
  exists kd' de' body',
    rmap (fun o => match o with Some x => rbind (transf n bd inn x) (fun y => ret (Some y)) | None => ret None end) kd = inl kd' /\
    rmap (transf n bd inn) de = inl de' /\
    transf n (po ++ ar ++ ko ++ opt_list va ++ opt_list kw ++ walrus_names body ++ bd) true body = inl body' /\
    e' = Lambda po ar va ko kd' kw de' body'.
Proof.
  intros n bd inn po ar va ko kd kw de body e' H. cbn [transf] in H.
  apply rbind_inl in H as (kd' & E1 & H). apply rbind_inl in H as (de' & E2 & H). apply rbind_inl in H as (body' & E3 & H).
  injection H as <-. exists kd', de', body'. repeat split; assumption.
Qed.

(* the hypotheses as boolean checks (evaluated on every explored symbol table) *)
Definition rbinding_eqb (a b : rbinding) : bool :=
  match a, b with
  | RGlobal, RGlobal => true
  | RBinder i, RBinder j => Nat.eqb i j
  | _, _ => false
  end.
Lemma rbinding_eqb_eq a b : rbinding_eqb a b = true -> a = b.
Proof. destruct a, b; cbn; try discriminate; [|reflexivity]. intros H. apply Nat.eqb_eq in H. subst. reflexivity. Qed.

Fixpoint maps_okb (links : list link) (x : ident) : bool :=
  match links with
  | [] => true
  | l :: post =>
      (match lk_kind l with
       | NFunction =>
           match lookup_sym (lk_syms l) x with
           | Some s => if sy_local s then true
                       else rbinding_eqb (ref_walk (map link_anc (l :: post)) x)
                              (match assoc_nat x (lk_outer_map l) with Some o => RBinder o | None => RGlobal end)
           | None => true
           end
       | _ => true
       end) && maps_okb post x
  end.

Lemma maps_okb_sound : forall links x, maps_okb links x = true -> maps_ok links x.
Proof.
  induction links as [|l0 r IH]; intros x H pre l post E Hk s Hl Hs.
  - destruct pre; discriminate.
  - cbn [maps_okb] in H. apply andb_prop in H as [H1 H2].
    destruct pre as [|p pre].
    + cbn [app] in E. injection E as <- <-. rewrite Hk, Hl, Hs in H1. apply rbinding_eqb_eq. exact H1.
    + cbn [app] in E. injection E as _ E. eapply (IH x H2 pre l post E Hk s Hl Hs).
Qed.

Fixpoint all_nsp (n : nsp) : list nsp :=
  match n with Nsp _ _ _ _ _ _ _ _ _ _ _ _ inner _ => n :: flat_map all_nsp inner end.

(* every outer-map entry points at a namespace on the chain that keeps the name in its dictionary (no access to a
   variable can miss the dictionary once one access uses it) *)
Definition dict_ok (n : nsp) : bool :=
  forallb (fun kv =>
     existsb (fun l => Nat.eqb (lk_id l) (snd kv) && mem (fst kv) (lk_inner_nonlocal l)
                       && match lk_kind l with NFunction => true | _ => false end) (n_chain n))
    (n_outer_map n).

Definition names_of (n : nsp) : list ident :=
  map sy_name (n_syms n) ++ flat_map (fun l => map sy_name (lk_syms l)) (n_chain n).

Definition nsp_ok (n : nsp) : bool :=
  dict_ok n && forallb (fun x => sym_ok n x && maps_okb (self_link n :: n_chain n) x) (names_of n).

Definition tree_ok (root : nsp) : bool := forallb nsp_ok (all_nsp root).
